(* C30 - locale qualifiers round-trip through the configuration encoding.  Property theorems only.
   Strings are lists of code points; code_ok base s says s is a two-character code (ASCII first
   character, no '-') or a three-character code whose characters lie within 32 of the base
   ('a' for languages: a..z and beyond; '0' for regions: digits and A..O). *)
From Coq Require Import ZArith List.
Require Import V.Axml.LocaleModel V.Axml.LocaleProofs.
Import ListNotations.
Open Scope Z_scope.

(* the reported language-and-region string is the one that was encoded *)
Theorem C30_get_set : forall lang region, code_ok 97 lang = true -> region_ok region = true ->
  get_lr (set_lr (render lang region)) = render lang region.
Proof. exact get_set. Qed.
Print Assumptions C30_get_set.

(* encoding the reported string again gives the same configuration, for every locale word whose
   language field holds a code and whose region field holds a code or is empty *)
Theorem C30_set_get : forall l0 l1 r0 r1, field_ok l0 l1 = true ->
  (field_ok r0 r1 = true \/ (r0 = 0 /\ r1 = 0)) ->
  set_lr (get_lr (locale_of l0 l1 r0 r1)) = locale_of l0 l1 r0 r1.
Proof. exact set_get. Qed.
Print Assumptions C30_set_get.

(* a code and its 16-bit field determine each other *)
Theorem C30_code_field : forall base s, base = 97 \/ base = 48 -> code_ok base s = true ->
  unpack (fst (pack s base)) (snd (pack s base)) base = s /\
  field_ok (fst (pack s base)) (snd (pack s base)) = true.
Proof. intros base s _. apply code_roundtrip. Qed.
Print Assumptions C30_code_field.

Theorem C30_field_code : forall base a b, base = 97 \/ base = 48 -> field_ok a b = true ->
  pack (unpack a b base) base = (a, b) /\ code_ok base (unpack a b base) = true.
Proof. intros base a b _. apply field_roundtrip. Qed.
Print Assumptions C30_field_code.

Theorem C30_default_locale : get_lr 0 = [0; 0] /\ set_lr [0; 0] = 0.
Proof. exact default_locale. Qed.
Print Assumptions C30_default_locale.

(* "fil-rPH", "es-r419", "en", "zh-rCN": the hypotheses are satisfiable and the values concrete *)
Example C30_nonvacuous :
  code_ok 97 [102; 105; 108] = true /\ region_ok (Some [80; 72]) = true /\
  region_ok (Some [52; 49; 57]) = true /\ code_ok 97 [101; 110] = true /\
  set_lr [102; 105; 108; 45; 114; 80; 72] = 1213203885 /\
  get_lr 1213203885 = [102; 105; 108; 45; 114; 80; 72] /\
  set_lr [101; 115; 45; 114; 52; 49; 57] = 614757221 /\
  get_lr 614757221 = [101; 115; 45; 114; 52; 49; 57] /\
  field_ok 173 5 = true.
Proof. vm_compute. repeat split; reflexivity. Qed.
