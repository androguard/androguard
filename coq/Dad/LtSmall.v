(* C18 - the model of dom_lt against the proved specification on EVERY graph with up to four nodes (successor lists in
   increasing order without repetition), every node as entry: a finite domain, swept by the kernel, after the edges that
   lead into the entry or from a node to itself have been shown to change neither side. *)
From Coq Require Import ZArith List Bool Lia FinFun.
Require Import V.Lib.Val V.Lib.ListFacts V.Lib.Result V.Dad.DomModel V.Dad.DomProofs V.Dad.LtModel.
Import ListNotations.
Open Scope Z_scope.

Fixpoint sublists (l : list Z) : list (list Z) :=
  match l with
  | [] => [[]]
  | x :: r => let t := sublists r in t ++ map (cons x) t
  end.
Fixpoint lists_of (n : nat) (choices : list (list Z)) : list (list (list Z)) :=
  match n with
  | O => [[]]
  | S k => flat_map (fun g => map (fun l => l :: g) choices) (lists_of k choices)
  end.
Definition range (n : nat) : list Z := map Z.of_nat (seq 0 n).

Fixpoint subseq (l r : list Z) : bool :=
  match r with
  | [] => match l with [] => true | _ => false end
  | y :: r' => match l with
               | [] => true
               | x :: l' => if x =? y then subseq l' r' else subseq l r'
               end
  end.
Lemma sublists_complete : forall r l, NoDup r -> subseq l r = true -> In l (sublists r).
Proof.
  intros r l _. revert l. induction r as [|y r IH]; intros l H.
  - destruct l; [left; reflexivity | discriminate].
  - cbn [sublists]. apply in_or_app. destruct l as [|x l'].
    + left. apply IH. destruct r; reflexivity.
    + cbn [subseq] in H. destruct (Z.eqb_spec x y) as [->|_]; [right; apply in_map | left]; apply IH, H.
Qed.
Lemma lists_of_complete : forall n choices g, length g = n -> Forall (fun l => In l choices) g -> In g (lists_of n choices).
Proof.
  induction n as [|k IH]; intros choices g L F.
  - destruct g; [left; reflexivity | discriminate].
  - destruct g as [|l g']; [discriminate|]. inversion F as [|? ? Hl F']; subst. cbn [lists_of]. apply in_flat_map. exists g'.
    split; [apply IH; [cbn in L; lia | assumption]|]. apply in_map_iff. exists l. split; [reflexivity | assumption].
Qed.
Lemma of_nat_nodup l : NoDup l -> NoDup (map Z.of_nat l).
Proof. apply Injective_map_NoDup. intros a b. apply Nat2Z.inj. Qed.

Definition row_of (m : list (Z * option Z)) (v : Z) : Z :=
  match find (fun p => fst p =? v) m with
  | Some (_, Some d) => d
  | Some (_, None) => -1
  | None => -2
  end.
Definition spec_row (g : graph) (entry : Z) : option (list Z) :=
  match spec_idom g entry with
  | None => None
  | Some m => Some (map (row_of m) (map Z.of_nat (seq 0 (length g))))
  end.
Lemma obs_idom_row g entry : obs_idom (g, entry) = match spec_row g entry with None => VErr E_OutOfFuel | Some l => vlistZ l end.
Proof. unfold obs_idom, spec_row. destruct (spec_idom g entry); reflexivity. Qed.

Definition finish (ord : list Z -> list Z) (g : graph) (entry : Z) (ns : Z * lt) : option (list Z) :=
  let (n, s) := ns in
  match passes ord (S (length g)) s (rev (upto n)) with
  | None => None
  | Some s1 => Some (map (dom (set_dom (fold_left step4 (upto n) s1) entry (-1))) (map Z.of_nat (seq 0 (length g))))
  end.
Lemma lt_row_ord_finish ord g entry :
  lt_row_ord ord g entry = match dfs (S (length g)) g entry 0 lt0 with Some ns => finish ord g entry ns | None => None end.
Proof.
  unfold lt_row_ord, dom_lt_ord, finish. destruct (dfs _ g entry 0 lt0) as [[n s]|]; [|reflexivity].
  destruct (passes ord _ s _); reflexivity.
Qed.

(* strip e g is g without the edges into e and without the edges from a node to itself (keep e v: what stays of the
   successors of v).  With e as the entry neither the specification nor dom_lt can tell it from g.  The closure is fed
   the successors of the nodes it has, starts from [e] and never adds a node twice.  The numbering meets such an edge
   when its target has a number already (e from the start, v while the successors of v are scanned), so it only records
   the source in pred[target]; no pass reads pred[e], because the passes run over the numbers n..2 and e has number 1;
   and step 2 of the pass for v passes over v in pred[v], because v is still a root of the forest then: eval v is v, and
   semi[v] becomes min semi[v] semi[v].  So it is enough to sweep the graphs without such edges. *)
Definition keep (e v x : Z) : bool := negb (x =? e) && negb (x =? v).
Fixpoint strip_from (e v : Z) (g : graph) : graph :=
  match g with [] => [] | l :: r => filter (keep e v) l :: strip_from e (v + 1) r end.
Definition strip (e : Z) (g : graph) : graph := strip_from e 0 g.
Lemma keep_false e v x : keep e v x = false -> x = e \/ x = v.
Proof. unfold keep. destruct (Z.eqb_spec x e), (Z.eqb_spec x v); auto; discriminate. Qed.
Lemma strip_length e g : length (strip e g) = length g.
Proof. unfold strip. generalize 0. induction g as [|l g IH]; intros k; cbn [strip_from length]; [|rewrite IH]; reflexivity. Qed.
Lemma sucs_strip e g v : sucs (strip e g) v = filter (keep e v) (sucs g v).
Proof.
  unfold sucs, strip. destruct (Z.ltb_spec v 0) as [|Hv]; [reflexivity|]. rewrite <- (Z2Nat.id v Hv) at 2. rewrite <- (Z.add_0_l (Z.of_nat _)).
  generalize 0, (Z.to_nat v). induction g as [|l g IH]; intros k [|n]; cbn [strip_from nth]; try reflexivity.
  - rewrite Z.add_0_r. reflexivity.
  - rewrite IH. do 2 f_equal. lia.
Qed.

Lemma grow_strip e g d W : In e W -> grow (strip e g) d W = grow g d W.
Proof.
  intros He. unfold grow. rewrite (flat_map_ext _ _ (sucs_strip e g)). apply add_new_flat_filter.
  intros v x Hv Hx. apply keep_false in Hx as [->| ->]; assumption.
Qed.
Lemma closure_strip e g d : forall fuel W, In e W -> closure fuel (strip e g) d W = closure fuel g d W.
Proof.
  induction fuel as [|f IH]; intros W H; [reflexivity|]. cbn [closure]. rewrite (grow_strip e g d W H).
  destruct (_ =? _)%nat; [reflexivity|]. apply IH, add_new_in. left. exact H.
Qed.
Lemma reach_set_strip e g d : reach_set (strip e g) e d = reach_set g e d.
Proof. unfold reach_set. rewrite strip_length. destruct (allowed d e); [|reflexivity]. apply closure_strip. left. reflexivity. Qed.
Lemma spec_idom_strip e g : spec_idom (strip e g) e = spec_idom g e.
Proof.
  unfold spec_idom, without_table. rewrite reach_set_strip. destruct (reach_set g e None) as [R|]; [|reflexivity].
  rewrite (map_opt_ext (fun d => f_equal _ (reach_set_strip e g (Some d)))). reflexivity.
Qed.

Lemma spec_row_strip e g : spec_row (strip e g) e = spec_row g e.
Proof. unfold spec_row. rewrite spec_idom_strip, strip_length. reflexivity. Qed.

(* The state of dom_lt is a record of functions, and two runs that write differently to pred end in states that may agree at
   every argument without being equal; so the runs on g and on strip e g are related field by field and point by point.  The
   relation is between the run on g (left) and the run on strip e g (right): pred[x] on the right is pred[x] on the left
   without x, pred[e] is left out.  Every function of the model takes related states to related results. *)
Definition orel {A B} (R : A -> B -> Prop) (o : option A) (o' : option B) : Prop :=
  match o, o' with Some a, Some b => R a b | None, None => True | _, _ => False end.
Lemma orel_bind {A B C D} (R : A -> B -> Prop) (Q : C -> D -> Prop) o o' k k' :
  orel R o o' -> (forall a b, o = Some a -> R a b -> orel Q (k a) (k' b)) ->
  orel Q (match o with Some a => k a | None => None end) (match o' with Some b => k' b | None => None end).
Proof. destruct o, o'; cbn [orel]; auto; contradiction. Qed.

Definition others (x : Z) (l : list Z) : list Z := filter (fun v => negb (v =? x)) l.
Lemma others_add_self x l : others x (add_set l x) = others x l.
Proof. unfold add_set, others. destruct (memz x l); [reflexivity|]. rewrite filter_app. cbn [filter]. rewrite Z.eqb_refl. apply app_nil_r. Qed.
Lemma others_add x v l : v <> x -> others x (add_set l v) = add_set (others x l) v.
Proof.
  intros Hv. apply Z.eqb_neq in Hv. unfold add_set, others.
  assert (M : memz v (filter (fun u => negb (u =? x)) l) = memz v l).
  { apply eq_true_iff_eq. rewrite !memz_spec, filter_In, Hv. cbn [negb]. tauto. }
  rewrite M. destruct (memz v l); [reflexivity|]. rewrite filter_app. cbn [filter]. rewrite Hv. reflexivity.
Qed.

Set Implicit Arguments.
Record same (e : Z) (s s' : lt) : Prop := {
  same_semi x : semi s x = semi s' x; same_vertex x : vertex s x = vertex s' x; same_label x : label s x = label s' x;
  same_anc x : anc s x = anc s' x; same_parent x : parent s x = parent s' x; same_pred x : x <> e -> others x (pred s x) = pred s' x;
  same_bucket x : bucket s x = bucket s' x; same_dom x : dom s x = dom s' x }.
Unset Implicit Arguments.
Lemma upd_ext {A} {m m' : Z -> A} {k v x} : m x = m' x -> upd m k v x = upd m' k v x.
Proof. unfold upd. destruct (x =? k); auto. Qed.
Lemma same_set_semi e s s' k v : same e s s' -> same e (set_semi s k v) (set_semi s' k v).
Proof. intros []. split; simpl; auto using upd_ext. Qed.
Lemma same_set_vertex e s s' k v : same e s s' -> same e (set_vertex s k v) (set_vertex s' k v).
Proof. intros []. split; simpl; auto using upd_ext. Qed.
Lemma same_set_label e s s' k v : same e s s' -> same e (set_label s k v) (set_label s' k v).
Proof. intros []. split; simpl; auto using upd_ext. Qed.
Lemma same_set_anc e s s' k v : same e s s' -> same e (set_anc s k v) (set_anc s' k v).
Proof. intros []. split; simpl; auto using upd_ext. Qed.
Lemma same_set_parent e s s' k v : same e s s' -> same e (set_parent s k v) (set_parent s' k v).
Proof. intros []. split; simpl; auto using upd_ext. Qed.
Lemma same_set_bucket e s s' k v : same e s s' -> same e (set_bucket s k v) (set_bucket s' k v).
Proof. intros []. split; simpl; auto using upd_ext. Qed.
Lemma same_set_dom e s s' k v : same e s s' -> same e (set_dom s k v) (set_dom s' k v).
Proof. intros []. split; simpl; auto using upd_ext. Qed.
Lemma same_set_pred e s s' k l l' : same e s s' -> (k <> e -> others k l = l') -> same e (set_pred s k l) (set_pred s' k l').
Proof.
  intros [] Hl. split; simpl; auto. intros x Hx. unfold upd. destruct (Z.eqb_spec x k) as [->|]; auto.
Qed.
Lemma same_set_pred_l e s s' k l : same e s s' -> (k <> e -> others k l = others k (pred s k)) -> same e (set_pred s k l) s'.
Proof.
  intros [] Hl. split; simpl; auto. intros x Hx. unfold upd. destruct (Z.eqb_spec x k) as [->|]; auto. rewrite Hl; auto.
Qed.
Lemma same_set_semi_l e s s' k : same e s s' -> same e (set_semi s k (semi s k)) s'.
Proof.
  intros []. split; simpl; auto. intros x. unfold upd. destruct (Z.eqb_spec x k) as [->|]; auto.
Qed.

Definition same_z e (a b : Z * lt) : Prop := let (n, s) := a in let (n', s') := b in n' = n /\ same e s s'.

Definition dfs_loop (rec : Z -> Z -> lt -> option (Z * lt)) (v : Z) :=
  fix loop (ws : list Z) (n : Z) (s : lt) : option (Z * lt) :=
    match ws with
    | [] => Some (n, s)
    | w :: r =>
        if semi s w =? 0 then
          match rec w n (set_parent s w v) with
          | None => None
          | Some (n', s') => loop r n' (set_pred s' w (add_set (pred s' w) v))
          end
        else loop r n (set_pred s w (add_set (pred s w) v))
    end.
Lemma dfs_S f g v n s :
  dfs (S f) g v n s = dfs_loop (dfs f g) v (sucs g v) (n + 1) (set_anc (set_label (set_vertex (set_semi s v (n + 1)) (n + 1) v) v v) v (-1)).
Proof. reflexivity. Qed.

(* a node that has a number (semi <> 0) keeps one; an edge into e or from v to v is scanned when its target has one, and is
   only recorded in pred *)
Definition numbered e (s0 : lt) (a b : Z * lt) : Prop :=
  same_z e a b /\ 0 <= fst a /\ forall x, semi s0 x <> 0 -> semi (snd a) x <> 0.

Lemma dfs_loop_strip e rec rec' v s0 :
  (forall w n s s', same e s s' -> 0 <= n -> semi (set_semi s w (n + 1)) e <> 0 -> orel (numbered e s) (rec w n s) (rec' w n s')) ->
  forall ws n s s', same e s s' -> 0 <= n -> (forall x, semi s0 x <> 0 -> semi s x <> 0) -> semi s e <> 0 -> semi s v <> 0 ->
  orel (numbered e s0) (dfs_loop rec v ws n s) (dfs_loop rec' v (filter (keep e v) ws) n s').
Proof.
  intros Hrec. induction ws as [|w r IH]; intros n s s' H Hn H0 He Hv; [exact (conj (conj eq_refl H) (conj Hn H0))|].
  cbn [filter dfs_loop]. unfold keep at 1. destruct (Z.eqb_spec w e) as [->|Hwe]; [|destruct (Z.eqb_spec w v) as [->|Hwv]]; cbn [negb andb].
  - apply Z.eqb_neq in He. rewrite He. apply IH; try assumption; [|apply Z.eqb_neq, He]. apply same_set_pred_l; [exact H | contradiction].
  - apply Z.eqb_neq in Hv. rewrite Hv. apply IH; try assumption; [|apply Z.eqb_neq, Hv]. apply same_set_pred_l; [exact H|]. intros _. apply others_add_self.
  - cbn [dfs_loop]. rewrite <- (same_semi H), <- (same_pred H Hwe). destruct (Z.eqb_spec (semi s w) 0) as [E|_].
    + apply (orel_bind (numbered e (set_parent s w v))).
      * apply Hrec; [apply same_set_parent, H | exact Hn |]. cbn [semi set_semi set_parent]. unfold upd. destruct (Z.eqb_spec e w); congruence.
      * intros [n1 s1] [n1' s1'] _ [[-> H1] [Hn1 M]]. cbn [fst snd] in Hn1, M. rewrite <- (same_pred H1 Hwe).
        apply IH; [|exact Hn1 | exact (fun x Hx => M x (H0 x Hx)) | exact (M e He) | exact (M v Hv)].
        apply same_set_pred; [exact H1|]. intros _. apply others_add. congruence.
    + apply IH; auto. apply same_set_pred; [exact H|]. intros _. apply others_add. congruence.
Qed.

Lemma dfs_strip e g : forall f v n s s', same e s s' -> 0 <= n -> semi (set_semi s v (n + 1)) e <> 0 ->
  orel (numbered e s) (dfs f g v n s) (dfs f (strip e g) v n s').
Proof.
  induction f as [|f IH]; intros v n s s' H Hn Hs; [exact I|]. rewrite !dfs_S, sucs_strip.
  apply dfs_loop_strip; [exact IH | | lia | | exact Hs |].
  - apply same_set_anc, same_set_label, same_set_vertex, same_set_semi, H.
  - intros x Hx. cbn [semi set_anc set_label set_vertex set_semi]. unfold upd. destruct (x =? v); [lia | exact Hx].
  - cbn [semi set_anc set_label set_vertex set_semi]. unfold upd. rewrite Z.eqb_refl. lia.
Qed.

Lemma compress_same e : forall fuel s s' v, same e s s' -> orel (same e) (compress fuel s v) (compress fuel s' v).
Proof.
  induction fuel as [|f IH]; intros s s' v H; [exact I|]. cbn [compress]. rewrite <- !(same_anc H).
  destruct (anc s (anc s v) =? -1); [exact H|]. apply (orel_bind (same e)); [apply IH, H|]. intros s1 s1' _ H1.
  cbn [orel]. rewrite <- !(same_semi H1), <- !(same_label H1).
  destruct (_ <? _); cbn [anc set_label]; rewrite <- (same_anc H1); [apply same_set_anc, same_set_label, H1 | apply same_set_anc, H1].
Qed.
Lemma eval_same e fuel s s' v : same e s s' -> orel (same_z e) (eval fuel s v) (eval fuel s' v).
Proof.
  intros H. unfold eval. rewrite <- (same_anc H). destruct (anc s v =? -1); [split; [reflexivity | exact H]|].
  apply (orel_bind (same e)); [apply compress_same, H|]. intros s1 s1' _ H1. split; [symmetry; apply (same_label H1) | exact H1].
Qed.
Lemma step3_same e fuel pw : forall vs s s', same e s s' -> orel (same e) (step3 fuel s pw vs) (step3 fuel s' pw vs).
Proof.
  induction vs as [|v r IH]; intros s s' H; [exact H|]. cbn [step3]. apply (orel_bind (same_z e)); [apply eval_same, H|].
  intros [u s1] [u' s1'] _ [-> H1]. rewrite <- !(same_semi H1). apply IH, same_set_dom, H1.
Qed.

Definition keeps (s s1 : lt) : Prop := vertex s1 = vertex s /\ forall x, anc s x = -1 -> anc s1 x = -1.
Lemma keeps_trans {s s1 s2} : keeps s s1 -> keeps s1 s2 -> keeps s s2.
Proof. intros [V A] [V' A']. split; [congruence | auto]. Qed.
Lemma compress_keeps : forall fuel s v s1, compress fuel s v = Some s1 -> anc s v <> -1 -> keeps s s1.
Proof.
  induction fuel as [|f IH]; intros s v s1 H Hv; [discriminate|]. cbn [compress] in H.
  destruct (Z.eqb_spec (anc s (anc s v)) (-1)) as [|Hu]; [injection H as <-; split; auto|].
  destruct (compress f s _) as [s0|] eqn:E; [|discriminate]. injection H as <-. destruct (IH _ _ _ E Hu) as [V A]. split.
  - destruct (_ <? _); exact V.
  - intros x Hx. cbn [anc set_anc]. unfold upd. destruct (Z.eqb_spec x v) as [->|]; [contradiction|]. destruct (_ <? _); exact (A x Hx).
Qed.
Arguments compress_keeps {fuel s v s1}.
Lemma eval_keeps {fuel s v u s1} : eval fuel s v = Some (u, s1) -> keeps s s1.
Proof.
  unfold eval. destruct (Z.eqb_spec (anc s v) (-1)) as [|Hv]; [intros [= _ <-]; split; auto|].
  destruct (compress fuel s v) as [s0|] eqn:E; [|discriminate]. intros [= _ <-]. exact (compress_keeps E Hv).
Qed.
Lemma step2_keeps fuel w : forall vs s s1, step2 fuel s w vs = Some s1 -> keeps s s1.
Proof.
  induction vs as [|v r IH]; intros s s1 H; [injection H as <-; split; auto|]. cbn [step2] in H.
  destruct (eval fuel s v) as [[u s0]|] eqn:E; [|discriminate]. exact (keeps_trans (eval_keeps E) (IH _ _ H)).
Qed.
Lemma step3_keeps fuel pw : forall vs s s1, step3 fuel s pw vs = Some s1 -> keeps s s1.
Proof.
  induction vs as [|v r IH]; intros s s1 H; [injection H as <-; split; auto|]. cbn [step3] in H.
  destruct (eval fuel s v) as [[u s0]|] eqn:E; [|discriminate]. exact (keeps_trans (eval_keeps E) (IH _ _ H)).
Qed.
Lemma pass_keeps ord fuel s i s1 : pass ord fuel s i = Some s1 ->
  vertex s1 = vertex s /\ forall x, x <> vertex s i -> anc s x = -1 -> anc s1 x = -1.
Proof.
  unfold pass. destruct (step2 _ _ _ _) as [s2|] eqn:E2; [|discriminate]. destruct (step3 _ _ _ _) as [s3|] eqn:E3; [|discriminate].
  intros [= <-]. apply step2_keeps in E2 as [V2 A2]. apply step3_keeps in E3 as [V3 A3]. cbn [vertex anc set_bucket set_anc] in *.
  split; [congruence|]. intros x Hx Ha. apply A3. unfold upd. apply Z.eqb_neq in Hx. rewrite Hx. exact (A2 x Ha).
Qed.

(* a root w among its own predecessors is passed over: eval w is w *)
Lemma step2_same e fuel w : forall vs s s', same e s s' -> anc s w = -1 ->
  orel (same e) (step2 fuel s w vs) (step2 fuel s' w (others w vs)).
Proof.
  induction vs as [|v r IH]; intros s s' H Hw; [exact H|]. cbn [step2 others filter]. destruct (Z.eqb_spec v w) as [->|Hv]; cbn [negb].
  - unfold eval. rewrite Hw. cbn [Z.eqb Pos.eqb]. rewrite Z.min_id. apply IH; [apply same_set_semi_l, H | exact Hw].
  - cbn [step2]. apply (orel_bind (same_z e)); [apply eval_same, H|]. intros [u s1] [u' s1'] E [-> H1]. rewrite <- !(same_semi H1).
    apply IH; [apply same_set_semi, H1 | exact (proj2 (eval_keeps E) w Hw)].
Qed.
Lemma pass_same e ord fuel s s' i : (forall p l, filter p (ord l) = ord (filter p l)) ->
  same e s s' -> vertex s i <> e -> anc s (vertex s i) = -1 -> orel (same e) (pass ord fuel s i) (pass ord fuel s' i).
Proof.
  intros Hord H Hi Ha. unfold pass. rewrite <- (same_vertex H), <- (same_pred H Hi). unfold others at 1. rewrite <- Hord.
  apply (orel_bind (same e)); [apply step2_same; assumption|]. intros s1 s1' _ H1.
  cbn [parent bucket set_bucket set_anc]. rewrite <- !(same_semi H1), <- !(same_vertex H1), <- !(same_bucket H1), <- !(same_parent H1).
  rewrite <- (upd_ext (same_bucket H1 _)).
  apply (orel_bind (same e)); [apply step3_same, same_set_anc, same_set_bucket, H1|]. intros s4 s4' _ H4. apply same_set_bucket, H4.
Qed.
Lemma passes_same e ord fuel : (forall p l, filter p (ord l) = ord (filter p l)) -> forall is s s', same e s s' -> NoDup (map (vertex s) is) ->
  (forall i, In i is -> vertex s i <> e /\ anc s (vertex s i) = -1) -> orel (same e) (passes ord fuel s is) (passes ord fuel s' is).
Proof.
  intros Hord. induction is as [|i r IH]; intros s s' H ND Hv; [exact H|]. cbn [passes]. destruct (Hv i (or_introl eq_refl)) as [Hi Ha].
  apply (orel_bind (same e)); [exact (pass_same e ord fuel s s' i Hord H Hi Ha)|]. intros s1 s1' E P.
  apply pass_keeps in E as [V A]. inversion ND as [|? ? Hn ND']; subst. apply IH; [exact P | rewrite V; exact ND' | rewrite V].
  intros j Hj. destruct (Hv j (or_intror Hj)) as [Hj1 Hj2]. split; [exact Hj1|]. apply A; [|exact Hj2]. intros Ej. apply Hn. rewrite <- Ej. apply in_map, Hj.
Qed.

Lemma fold_step4_same e : forall is s s', same e s s' -> same e (fold_left step4 is s) (fold_left step4 is s').
Proof.
  induction is as [|i r IH]; intros s s' H; [exact H|]. apply IH. unfold step4.
  rewrite <- !(same_vertex H), <- !(same_semi H), <- !(same_dom H). destruct (_ =? _); [exact H | apply same_set_dom, H].
Qed.

(* What the passes need of the numbering: no number from 2 on is the number of e, vertex has semi as a left inverse (so
   that no node is passed twice), and the numbered nodes are roots.  All of it could be proved of dfs; it is tested on the
   numbering that the sweep computes anyway, and the relation carries it over from strip e g to g. *)
Definition numbering_ok (e : Z) (ns : Z * lt) : bool :=
  let (n, s) := ns in forallb (fun i => (semi s (vertex s i) =? i) && (negb (vertex s i =? e) && (anc s (vertex s i) =? -1))) (upto n).
Lemma finish_same ord e g g' a b : (forall p l, filter p (ord l) = ord (filter p l)) -> length g' = length g -> same_z e a b ->
  numbering_ok e b = true -> finish ord g e a = finish ord g' e b.
Proof.
  destruct a as [n s], b as [n' s']. intros Hord L [-> H] Hv. unfold finish. rewrite L.
  assert (T : forall i, In i (rev (upto n)) -> semi s (vertex s i) = i /\ vertex s i <> e /\ anc s (vertex s i) = -1).
  { intros i Hi. apply in_rev in Hi. cbn [numbering_ok] in Hv. rewrite forallb_forall in Hv. apply Hv in Hi.
    rewrite !andb_true_iff, negb_true_iff, Z.eqb_neq, !Z.eqb_eq in Hi. rewrite (same_semi H), (same_anc H), !(same_vertex H). exact Hi. }
  assert (P : orel (same e) (passes ord (S (length g)) s (rev (upto n))) (passes ord (S (length g)) s' (rev (upto n)))).
  { apply passes_same; [exact Hord | exact H | | intros i Hi; apply T, Hi].
    apply (NoDup_map_left_inverse _ (semi s)); [intros i Hi; apply T, Hi | apply NoDup_rev, of_nat_nodup, seq_NoDup]. }
  destruct (passes _ _ s _) as [s1|], (passes _ _ s' _) as [s1'|]; try contradiction; [|reflexivity].
  f_equal. apply map_ext. intros x. apply (same_dom (e := e)), same_set_dom, fold_step4_same, P.
Qed.

(* One pass over the domain serves both theorems: the row of the specification and the numbering are computed once per
   graph and entry, and the passes are run in both orders on that numbering.  The kernel's plain reduction, which coqchk
   uses, needs about a millisecond per graph, entry and part, so the parts are not evaluated twice. *)
Definition is_row (b : list Z) (r : option (list Z)) : bool :=
  match r with Some a => list_eqb Z.eqb a b | None => false end.
Lemma is_row_eq b r : is_row b r = true -> r = Some b.
Proof. destruct r as [a|]; [|discriminate]. intros H. apply list_eqb_Z_eq in H. congruence. Qed.
Definition agree (g : graph) (entry : Z) : bool :=
  match spec_row g entry, dfs (S (length g)) g entry 0 lt0 with
  | Some b, Some ns => numbering_ok entry ns && is_row b (finish (fun l => l) g entry ns) && is_row b (finish (@rev Z) g entry ns)
  | _, _ => false
  end.
(* graphs n entry still lists the graphs with an edge from a node to itself; the sweep skips them (by `if`: vm_compute
   evaluates both arguments of `||`) *)
Fixpoint has_loop (v : Z) (g : graph) : bool :=
  match g with [] => false | l :: r => memz v l || has_loop (v + 1) r end.
Definition graphs (n : nat) (entry : Z) : list graph := lists_of n (sublists (filter (fun x => negb (x =? entry)) (range n))).
Definition sweep (n : nat) : bool :=
  forallb (fun entry => forallb (fun g => if has_loop 0 g then true else agree g entry) (graphs n entry)) (range n).
Lemma sweep_upto4 : forallb sweep [1; 2; 3; 4]%nat = true.
Proof. vm_compute. reflexivity. Qed.

Lemma agree_sound g entry : agree (strip entry g) entry = true ->
  exists row, spec_row g entry = Some row /\ lt_row g entry = Some row /\ lt_row_ord (@rev Z) g entry = Some row.
Proof.
  unfold agree, lt_row. rewrite !lt_row_ord_finish, spec_row_strip, strip_length. destruct (spec_row g entry) as [b|]; [|discriminate].
  assert (D : orel (numbered entry lt0) (dfs (S (length g)) g entry 0 lt0) (dfs (S (length g)) (strip entry g) entry 0 lt0)).
  { apply dfs_strip; [split; reflexivity | reflexivity |]. cbn [semi set_semi]. unfold upd. rewrite Z.eqb_refl. discriminate. }
  destruct (dfs _ g entry 0 lt0) as [ns|], (dfs _ (strip entry g) entry 0 lt0) as [ns'|]; try contradiction; try discriminate.
  destruct D as [D _]. rewrite !andb_true_iff. intros [[Hv H1] H2]. apply is_row_eq in H1, H2. exists b.
  rewrite (finish_same _ entry g (strip entry g) ns ns' (fun _ _ => eq_refl) (strip_length _ _) D Hv).
  rewrite (finish_same _ entry g (strip entry g) ns ns' filter_rev (strip_length _ _) D Hv). auto.
Qed.
Lemma sublists_filter p q : (forall x, q x = true -> p x = true) -> forall r l, In l (sublists r) -> In (filter q l) (sublists (filter p r)).
Proof.
  intros Hq. induction r as [|y r IH]; intros l H; [destruct H as [<-|[]]; left; reflexivity|].
  assert (W : forall l', In l' (sublists (filter p r)) -> In l' (sublists (filter p (y :: r)))).
  { intros l' H'. cbn [filter]. destruct (p y); [cbn [sublists]; apply in_or_app; left|]; exact H'. }
  cbn [sublists] in H. apply in_app_or in H as [H|H]; [exact (W _ (IH _ H))|].
  apply in_map_iff in H as (l0 & <- & H). apply IH in H. cbn [filter]. destruct (q y) eqn:E; [|exact (W _ H)].
  rewrite (Hq y E). cbn [sublists]. apply in_or_app. right. apply in_map, H.
Qed.
Lemma strip_in_graphs e choices g : Forall (fun l => In l (sublists choices)) g -> forall v,
  Forall (fun l => In l (sublists (filter (fun x => negb (x =? e)) choices))) (strip_from e v g) /\ has_loop v (strip_from e v g) = false.
Proof.
  induction 1 as [|l g Hl F IH]; intros v; [split; [constructor | reflexivity]|]. destruct (IH (v + 1)) as [IH1 IH2]. cbn [strip_from has_loop]. split.
  - constructor; [|exact IH1]. apply sublists_filter; [|exact Hl]. intros x Hx. apply andb_true_iff in Hx. apply Hx.
  - rewrite IH2, orb_false_r. apply not_true_is_false. intros M. apply memz_spec, filter_In in M as [_ M]. unfold keep in M.
    rewrite Z.eqb_refl, andb_false_r in M. discriminate.
Qed.
Lemma sweep_sound n g entry : (1 <= n <= 4)%nat -> length g = n -> Forall (fun l => subseq l (range n) = true) g -> In entry (range n) ->
  agree (strip entry g) entry = true.
Proof.
  intros Hn L F E. assert (S : sweep n = true).
  { pose proof sweep_upto4 as S. rewrite forallb_forall in S. apply S. cbn [In]. lia. }
  unfold sweep in S. rewrite forallb_forall in S. specialize (S entry E). rewrite forallb_forall in S.
  destruct (fun F' => strip_in_graphs entry (range n) g F' 0) as [G NL].
  { eapply Forall_impl; [|exact F]. intros l Hl. apply sublists_complete; [apply of_nat_nodup, seq_NoDup | exact Hl]. }
  specialize (S (strip entry g)). unfold strip in S at 2. rewrite NL in S. apply S. apply lists_of_complete; [rewrite strip_length; exact L | exact G].
Qed.

(* every graph with one to four nodes whose successor lists are in increasing order without repetition, every node as entry:
   dom_lt as modelled ends and returns the table of the specification *)
Theorem lt_small : forall n g entry, (1 <= n <= 4)%nat -> length g = n -> Forall (fun l => subseq l (range n) = true) g -> In entry (range n) ->
  exists row, lt_row g entry = Some row /\ spec_row g entry = Some row.
Proof.
  intros n g entry Hn L F E. destruct (agree_sound g entry (sweep_sound n g entry Hn L F E)) as (row & A & B & _). exists row. split; assumption.
Qed.

Lemma row_of_meaning m v : (row_of m v = -2 /\ forall i, ~ In (v, i) m) \/ (row_of m v = -1 /\ In (v, None) m) \/ In (v, Some (row_of m v)) m.
Proof.
  unfold row_of. pose proof (find_key m v) as F. destruct (find _ m) as [[k [d|]]|]; [destruct F as [-> F]..|]; auto.
Qed.

(* with the theorem about the specification: on these graphs the modelled dom_lt returns, for every node, the node
   that the definition of the immediate dominator singles out *)
Theorem lt_small_meets_the_definition : forall n g entry, (1 <= n <= 4)%nat -> length g = n -> Forall (fun l => subseq l (range n) = true) g -> In entry (range n) ->
  exists m, lt_row g entry = Some (map (row_of m) (map Z.of_nat (seq 0 (length g)))) /\
    (forall v, (exists i, In (v, i) m) <-> reachable g entry v) /\
    (forall v, In (v, None) m -> v = entry) /\
    (forall v d, In (v, Some d) m -> v <> entry /\ is_idom g entry d v).
Proof.
  intros n g entry Hn L F E. destruct (lt_small n g entry Hn L F E) as (row & A & B). unfold spec_row in B.
  destruct (spec_idom g entry) as [m|] eqn:S; [|discriminate]. injection B as <-. exists m. split; [exact A|]. exact (DomProofs.spec_idom_sound g entry m S).
Qed.
Print Assumptions lt_small_meets_the_definition.

(* the sets pred[w] and bucket[v] iterated in the opposite order (Python's order depends on memory addresses): the same table, on
   the same finite domain *)
Theorem lt_small_any_of_two_orders : forall n g entry, (3 <= n <= 4)%nat -> length g = n -> Forall (fun l => subseq l (range n) = true) g -> In entry (range n) ->
  lt_row_ord (@rev Z) g entry = lt_row g entry /\ lt_row g entry <> None.
Proof.
  intros n g entry Hn L F E. assert (Hn' : (1 <= n <= 4)%nat) by lia.
  destruct (agree_sound g entry (sweep_sound n g entry Hn' L F E)) as (row & _ & A & B). rewrite A, B. split; [reflexivity | discriminate].
Qed.
Print Assumptions lt_small_any_of_two_orders.
