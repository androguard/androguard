(* C24 - on the descriptor of a well-formed type, util.get_type (decompiler) returns the Java name with direct members of
   java.lang shortened and dex.get_type the full dotted name, each with one [] per array dimension: the class branch and the
   array branch of each function as an equation, then induction on the dimensions. *)
From Coq Require Import ZArith List Bool Lia.
Require Import V.Lib.Val V.Lib.Result V.Lib.ListFacts V.Dad.TypeNameModel.
Import ListNotations.
Open Scope Z_scope.

Lemma zl_eqb_eq a b : zl_eqb a b = true <-> a = b.
Proof. unfold zl_eqb. destruct (list_eq_dec Z.eq_dec a b); split; intros; auto; discriminate. Qed.

Definition no47 (s : list Z) : Prop := ~ In 47 s.
Lemma has_slash_false s : has_slash s = false <-> no47 s.
Proof. exact (existsb_eqb_nIn 47 s). Qed.
Lemma seg_ok_spec s : seg_ok s = true <-> no47 s /\ s <> [].
Proof.
  unfold seg_ok. rewrite andb_true_iff, negb_true_iff, has_slash_false. destruct s; split; intros [A B]; split; auto; try discriminate; congruence.
Qed.
Lemma segs_no47 segs : forallb seg_ok segs = true -> Forall no47 segs.
Proof.
  intros Hok. apply Forall_forall. intros s Hs. rewrite forallb_forall in Hok.
  specialize (Hok _ Hs). apply seg_ok_spec in Hok. tauto.
Qed.

(* joining with a separator that does not occur in the pieces is injective *)
Lemma app_sep_inj : forall a b r r', no47 a -> no47 b -> a ++ 47 :: r = b ++ 47 :: r' -> a = b /\ r = r'.
Proof.
  induction a as [|x a IH]; intros [|y b] r r' Ha Hb E; simpl in E.
  - injection E as E. auto.
  - injection E as E1 E2. exfalso. apply Hb. left. congruence.
  - injection E as E1 E2. exfalso. apply Ha. left. exact E1.
  - injection E as E1 E2. subst y.
    destruct (IH b r r') as [-> ->]; auto; intros Hin; [apply Ha | apply Hb]; right; exact Hin.
Qed.
Arguments app_sep_inj {a b r r'}.
Lemma app_sep_neq {a b r} : no47 a -> a <> b ++ 47 :: r.
Proof. intros Ha E. apply Ha. rewrite E. apply in_or_app. right. left. reflexivity. Qed.

Lemma join_cons sep a b t : join sep (a :: b :: t) = a ++ sep :: join sep (b :: t).
Proof. reflexivity. Qed.

Lemma join_inj : forall l1 l2, l1 <> [] -> l2 <> [] -> Forall no47 l1 -> Forall no47 l2 ->
  join 47 l1 = join 47 l2 -> l1 = l2.
Proof.
  induction l1 as [|a l1 IH]; intros l2 N1 N2 F1 F2 E; [congruence|].
  destruct l2 as [|b l2]; [congruence|]. inversion F1 as [|? ? Ha F1']; subst. inversion F2 as [|? ? Hb F2']; subst.
  destruct l1 as [|a' l1]; destruct l2 as [|b' l2].
  - simpl in E. subst. reflexivity.
  - rewrite join_cons in E. simpl in E. exfalso. exact (app_sep_neq Ha E).
  - rewrite join_cons in E. simpl in E. exfalso. symmetry in E. exact (app_sep_neq Hb E).
  - rewrite !join_cons in E. destruct (app_sep_inj Ha Hb E) as [-> E'].
    f_equal. apply IH; auto; discriminate.
Qed.

Lemma replace_slash_no47 s : no47 s -> replace_slash s = s.
Proof.
  induction s as [|c s IH]; intros H; [reflexivity|]. simpl.
  destruct (Z.eqb_spec c 47) as [->|_]; [exfalso; apply H; left; reflexivity|].
  f_equal. apply IH. intros Hin. apply H. right. exact Hin.
Qed.
Lemma replace_slash_app a b : replace_slash (a ++ b) = replace_slash a ++ replace_slash b.
Proof. apply map_app. Qed.
Lemma replace_slash_join : forall l, Forall no47 l -> replace_slash (join 47 l) = join 46 l.
Proof.
  induction l as [|a l IH]; intros F; [reflexivity|]. inversion F as [|? ? Ha F']; subst.
  destruct l as [|b l]; [apply replace_slash_no47; exact Ha|].
  rewrite !join_cons, replace_slash_app, replace_slash_no47 by exact Ha.
  cbn [replace_slash map]. change (47 =? 47) with true. cbv iota. f_equal. f_equal. apply IH. exact F'.
Qed.

Lemma starts_with_app p s : starts_with p (p ++ s) = true.
Proof. apply (is_prefix_spec p (p ++ s)). now exists s. Qed.
Lemma starts_with_split : forall p s, starts_with p s = true -> s = p ++ skipn (length p) s.
Proof. intros p s H. apply (is_prefix_spec p s) in H as [r ->]. now rewrite skipn_length_app. Qed.

Lemma short_name_cases b :
  (exists x, b = Cls [S_java; S_lang; x] /\ short_name b = x) \/ short_name b = full_name b.
Proof.
  destruct b as [c|segs]; [right; reflexivity|].
  destruct segs as [|a [|l [|x [|y segs]]]]; try (right; reflexivity).
  cbn [short_name]. destruct (zl_eqb a S_java && zl_eqb l S_lang) eqn:D; [|right; reflexivity].
  apply andb_true_iff in D. destruct D as [D1 D2]. apply zl_eqb_eq in D1. apply zl_eqb_eq in D2. subst.
  left. exists x. split; reflexivity.
Qed.

(* the class branch of util.get_type *)
Definition strip_jl (res : list Z) : list Z :=
  if starts_with JAVA_LANG_SLASH res && negb (has_slash (skipn 10 res)) then skipn 10 res else res.

Lemma no47_java : no47 S_java. Proof. apply has_slash_false. reflexivity. Qed.
Lemma no47_lang : no47 S_lang. Proof. apply has_slash_false. reflexivity. Qed.

(* the prefix is dropped exactly from java/lang/x with x free of '/': by join_inj that is the class [java; lang; x] *)
Lemma strip_jl_spec segs : forallb seg_ok segs = true -> segs <> [] ->
  replace_slash (strip_jl (join 47 segs)) = short_name (Cls segs).
Proof.
  intros Hok Hne.
  pose proof (segs_no47 segs Hok) as F.
  unfold strip_jl.
  destruct (starts_with JAVA_LANG_SLASH (join 47 segs) && negb (has_slash (skipn 10 (join 47 segs)))) eqn:C.
  - apply andb_true_iff in C. destruct C as [C1 C2]. apply negb_true_iff, has_slash_false in C2.
    apply starts_with_split in C1. change (length JAVA_LANG_SLASH) with 10%nat in C1.
    set (x := skipn 10 (join 47 segs)) in *.
    assert (E : join 47 segs = join 47 [S_java; S_lang; x]) by (rewrite C1 at 1; reflexivity).
    apply join_inj in E; auto; [|discriminate | repeat constructor; [exact no47_java | exact no47_lang | exact C2]].
    rewrite E. cbn [short_name]. change (zl_eqb S_java S_java && zl_eqb S_lang S_lang) with true. cbv iota.
    apply replace_slash_no47. exact C2.
  - rewrite replace_slash_join by exact F.
    destruct (short_name_cases (Cls segs)) as [(x & [= ->] & _)|E]; [exfalso | symmetry; exact E].
    rewrite Forall_forall in F. specialize (F x (or_intror (or_intror (or_introl eq_refl)))).
    change (join 47 [S_java; S_lang; x]) with (JAVA_LANG_SLASH ++ x) in C.
    rewrite starts_with_app in C. change (skipn 10 (JAVA_LANG_SLASH ++ x)) with x in C.
    apply has_slash_false in F. rewrite F in C. discriminate.
Qed.

Lemma type_desc_long c s x : type_desc (c :: s ++ [x]) = None.
Proof. destruct s; reflexivity. Qed.
Lemma type_desc_bracket t : type_desc (91 :: t) = None.
Proof. destruct t; reflexivity. Qed.

Lemma get_type_u_class s : get_type_u (76 :: s ++ [59]) = Ok (replace_slash (strip_jl s)).
Proof. cbn [get_type_u]. rewrite type_desc_long, removelast_last. reflexivity. Qed.
Lemma get_type_u_array t :
  get_type_u (91 :: t) = match get_type_u t with Ok r => Ok (r ++ BRACKETS) | Err e => Err e end.
Proof. cbn [get_type_u]. rewrite type_desc_bracket. reflexivity. Qed.

(* dex.get_type: a descriptor never starts with a character of 'java.lang', so neither the replacement nor the
   lstrip applies *)
Lemma prim_not_strip c : prim_name c <> None -> in_strip_set c = false.
Proof.
  unfold prim_name. intros H.
  repeat match type of H with context [?x =? ?y] => destruct (Z.eqb_spec x y); [subst; reflexivity|] end.
  contradiction.
Qed.
Lemma head_plain c t : in_strip_set c = false ->
  starts_with JAVA_LANG (c :: t) = false /\ lstrip_set (c :: t) = c :: t.
Proof.
  intros H. cbn [lstrip_set]. rewrite H. split; [|reflexivity].
  cbn [in_strip_set JAVA_LANG existsb] in H. apply orb_false_iff in H as [H _].
  cbn [starts_with JAVA_LANG]. rewrite Z.eqb_sym, H. reflexivity.
Qed.
Lemma get_type_d_class f s : get_type_d (S f) (76 :: s ++ [59]) = Ok (replace_slash s).
Proof.
  cbn [get_type_d]. destruct (head_plain 76 (s ++ [59]) eq_refl) as [-> ->].
  rewrite type_desc_long, removelast_last. reflexivity.
Qed.
Lemma get_type_d_array f t :
  get_type_d (S f) (91 :: t) = match get_type_d f t with Ok r => Ok (r ++ BRACKETS) | Err e => Err e end.
Proof. cbn [get_type_d]. destruct (head_plain 91 t eq_refl) as [-> ->]. rewrite type_desc_bracket. reflexivity. Qed.

Lemma base_ok_cls segs : base_ok (Cls segs) = true -> forallb seg_ok segs = true /\ segs <> [].
Proof. cbn [base_ok]. intros H. apply andb_true_iff in H as [Hok Hne]. split; [exact Hok|]. now destruct segs. Qed.

Lemma base_desc_not_bracket b : base_ok b = true -> exists c t, base_desc b = c :: t /\ c <> 91.
Proof.
  destruct b as [c|segs]; cbn [base_ok base_desc]; intros H.
  - exists c, []. split; [reflexivity|]. intros ->. discriminate.
  - eexists _, _. split; [reflexivity|]. discriminate.
Qed.
Lemma desc_head dims b : base_ok b = true ->
  exists c t, desc dims b = c :: t /\ (c = 91 \/ c = 76 \/ prim_name c <> None).
Proof.
  intros H. destruct dims as [|d]; unfold desc; cbn [repeat app].
  - destruct b as [c|segs]; cbn [base_desc base_ok] in *.
    + exists c, []. split; [reflexivity|]. right. right. destruct (prim_name c); [discriminate|discriminate].
    + eexists _, _. split; [reflexivity|]. auto.
  - eexists _, _. split; [reflexivity|]. auto.
Qed.

Lemma get_type_u_base b : base_ok b = true -> get_type_u (base_desc b) = Ok (short_name b).
Proof.
  destruct b as [c|segs]; intros H.
  - cbn in *. destruct (prim_name c); [reflexivity|discriminate].
  - apply base_ok_cls in H as [Hok Hne]. cbn [base_desc]. rewrite get_type_u_class, strip_jl_spec by assumption. reflexivity.
Qed.
Theorem get_type_u_spec : forall dims b, base_ok b = true ->
  get_type_u (desc dims b) = Ok (short_name b ++ brackets dims).
Proof.
  induction dims as [|d IH]; intros b H.
  - cbn [brackets]. rewrite app_nil_r. apply get_type_u_base, H.
  - change (desc (S d) b) with (91 :: desc d b). rewrite get_type_u_array, IH by exact H.
    cbn [brackets]. rewrite app_assoc. reflexivity.
Qed.

Lemma get_type_d_base f b : base_ok b = true -> get_type_d (S f) (base_desc b) = Ok (full_name b).
Proof.
  destruct b as [p|segs]; intros H.
  - cbn [base_ok base_desc full_name] in *.
    assert (Hp : prim_name p <> None) by (destruct (prim_name p); discriminate).
    cbn [get_type_d]. destruct (head_plain p [] (prim_not_strip p Hp)) as [-> ->].
    cbn [type_desc]. destruct (prim_name p); [reflexivity|congruence].
  - apply base_ok_cls in H as [Hok _]. cbn [base_desc full_name].
    rewrite get_type_d_class, replace_slash_join by (apply segs_no47, Hok). reflexivity.
Qed.
Theorem get_type_d_spec : forall dims f b, base_ok b = true -> (dims < f)%nat ->
  get_type_d f (desc dims b) = Ok (full_name b ++ brackets dims).
Proof.
  induction dims as [|d IH]; intros f b H Hf; (destruct f as [|f]; [lia|]).
  - cbn [brackets]. rewrite app_nil_r. apply get_type_d_base, H.
  - change (desc (S d) b) with (91 :: desc d b). rewrite get_type_d_array, IH by (auto; lia).
    cbn [brackets]. rewrite app_assoc. reflexivity.
Qed.
