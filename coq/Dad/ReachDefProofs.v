(* C20 - proofs about coq/Dad/ReachDefModel.v: when the worklist iteration ends, R[v] is exactly the set of
   definitions that reach the entry of v along some path without an intervening redefinition, and the use-def rows are
   exactly the reaching definitions of each use. *)
From Coq Require Import ZArith List Bool Lia.
Require Import V.Lib.Val V.Lib.Result V.Lib.ListFacts V.Dad.ReachDefModel.
Import ListNotations.
Open Scope Z_scope.

Lemma memz_spec x l : memz x l = true <-> In x l.
Proof. exact (existsb_eqb_In x l). Qed.
Lemma memz_false x l : memz x l = false <-> ~ In x l.
Proof. exact (existsb_eqb_nIn x l). Qed.
Lemma subsetb_spec a b : subsetb a b = true <-> forall x, In x a -> In x b.
Proof. unfold subsetb. rewrite forallb_forall. split; intros H x Hx; apply memz_spec; auto. Qed.
Lemma set_eqb_spec a b : set_eqb a b = true <-> forall x, In x a <-> In x b.
Proof.
  unfold set_eqb. rewrite andb_true_iff, !subsetb_spec. split; [intros [H1 H2] x; split; auto | intros H; split; intros x; apply H].
Qed.
Lemma ins_sorted_in x y l : In y (ins_sorted x l) <-> y = x \/ In y l.
Proof.
  induction l as [|z l IH]; cbn [ins_sorted In]; [intuition|]. destruct (x <? z); cbn [In]; [intuition|].
  destruct (x =? z) eqn:E; cbn [In].
  - apply Z.eqb_eq in E. subst. intuition.
  - rewrite IH. intuition.
Qed.
Lemma set_of_in l y : In y (set_of l) <-> In y l.
Proof. induction l as [|x l IH]; cbn [set_of fold_right In]; [tauto|]. fold (set_of l). rewrite ins_sorted_in, IH. intuition. Qed.

Lemma upd_length {A} (l : list A) i x : length (upd l i x) = length l.
Proof. exact (set_nth_length l i x). Qed.
Lemma nth_upd_same {A} (l : list A) i x d : (i < length l)%nat -> nth i (upd l i x) d = x.
Proof. exact (nth_set_nth_same l i x d). Qed.
Lemma nth_upd_other {A} (l : list A) i j x d : i <> j -> nth j (upd l i x) d = nth j l d.
Proof. exact (nth_set_nth_other l i j x d). Qed.
Lemma nthz_updz {A} (l : list A) i j x d : 0 <= i < Z.of_nat (length l) -> nthz (updz l i x) j d = if j =? i then x else nthz l j d.
Proof.
  intros H. unfold nthz, updz. replace (i <? 0) with false by lia. destruct (Z.eqb_spec j i) as [->|N].
  - replace (i <? 0) with false by lia. apply nth_upd_same. lia.
  - destruct (j <? 0) eqn:Ej; [reflexivity|]. apply nth_upd_other. lia.
Qed.
Lemma updz_length {A} (l : list A) i x : length (updz l i x) = length l.
Proof. unfold updz. destruct (i <? 0); [reflexivity | apply upd_length]. Qed.

Lemma in_upto n v : In v (map Z.of_nat (seq 0 n)) <-> 0 <= v < Z.of_nat n.
Proof.
  rewrite in_map_iff. split.
  - intros (k & <- & Hk). apply in_seq in Hk. lia.
  - intros H. exists (Z.to_nat v). split; [lia|]. apply in_seq. lia.
Qed.
Lemma all_nodes_in m v : In v (all_nodes m) <-> 0 <= v <= nnodes m.
Proof. unfold all_nodes, nnodes. rewrite in_upto. lia. Qed.
Lemma all_nodes_length m : Z.of_nat (length (all_nodes m)) = nnodes m + 1.
Proof. unfold all_nodes, nnodes. rewrite map_length, seq_length. lia. Qed.

Definition real (m : method) (v : Z) : Prop := 0 <= v < nnodes m.
Record wf (m : method) : Prop := {
  wf_locs : NoDup (map snd (all_defs m));                       (* a loc names one definition *)
  wf_params : NoDup (g_params m);
  wf_sucs : forall v x, real m v -> In x (nthz (g_sucs m) v []) -> real m x;
  wf_entry : real m (g_entry m);
  wf_rpo_all : forall v, real m v -> In v (g_rpo m);
  wf_rpo_real : forall v, In v (g_rpo m) -> real m v;
  wf_code : length (g_code m) = length (g_sucs m);
  wf_lo : forall r l, In (r, l) (all_defs m) -> -1000000000 < l;
  wf_pos : forall v r l, real m v -> In (r, l) (node_defs m v) -> 0 <= l }.

Definition is_def (m : method) (reg loc : Z) : Prop := In (reg, loc) (all_defs m).
Definition last_def (m : method) (a reg loc : Z) : Prop := In (reg, loc) (node_defs m a) /\ loc = maxl (defs_in m a reg).
Definition defines (m : method) (v reg : Z) : Prop := In reg (regs_of m v).
Definition killed (m : method) (v : Z) : list Z := flat_map (def_to_loc m) (regs_of m v).
(* the definition loc of register reg reaches the entry of v: it is the last definition of reg in some node a, and there
   is a walk a -> ... -> v none of whose inner nodes defines reg *)
Inductive reach_in (m : method) (reg loc : Z) : Z -> Prop :=
| ri_edge a v : In a (all_nodes m) -> last_def m a reg loc -> In v (sucs m a) -> reach_in m reg loc v
| ri_step u v : In u (all_nodes m) -> reach_in m reg loc u -> ~ defines m u reg -> In v (sucs m u) -> reach_in m reg loc v.
Definition reach_out (m : method) (reg loc v : Z) : Prop := last_def m v reg loc \/ (reach_in m reg loc v /\ ~ defines m v reg).

Lemma node_defs_all m v r l : In v (all_nodes m) -> In (r, l) (node_defs m v) -> is_def m r l.
Proof. intros Hv H. unfold is_def, all_defs. apply in_flat_map. eauto. Qed.
Lemma reach_in_is_def {m reg loc v} : reach_in m reg loc v -> is_def m reg loc.
Proof. induction 1 as [a v Ha [Hd _] _|]; [eapply node_defs_all; eauto | assumption]. Qed.
Lemma def_reg_unique m r r' l : wf m -> is_def m r l -> is_def m r' l -> r = r'.
Proof. intros W H H'. assert (E : (r, l) = (r', l)) by (now apply (NoDup_map_inj snd (all_defs m)); [apply W | | |]). congruence. Qed.
Lemma select_in (l : list (Z * Z)) r y : In y (map snd (filter (fun d => fst d =? r) l)) <-> In (r, y) l.
Proof.
  rewrite in_map_iff. split.
  - intros ([r' y'] & E & H). apply filter_In in H as [H F]. cbn in *. apply Z.eqb_eq in F. now subst.
  - intros H. exists (r, y). split; [reflexivity|]. apply filter_In. split; [exact H | apply Z.eqb_refl].
Qed.
Lemma def_to_loc_in m reg loc : In loc (def_to_loc m reg) <-> is_def m reg loc.
Proof. apply select_in. Qed.
Lemma defs_in_in m v reg loc : In loc (defs_in m v reg) <-> In (reg, loc) (node_defs m v).
Proof. apply select_in. Qed.
Lemma killed_in m v loc : In loc (killed m v) <-> exists reg, defines m v reg /\ is_def m reg loc.
Proof. unfold killed. rewrite in_flat_map. split; intros (r & H1 & H2); exists r; split; auto; now apply def_to_loc_in. Qed.

Lemma maxl_in l : l <> [] -> (forall x, In x l -> -1000000000 < x) -> In (maxl l) l.
Proof.
  intros Hne Hlo. unfold maxl. destruct (fold_max_spec l (-1000000000)) as [[E|H] Ub]; [exfalso | exact H].
  destruct l as [|x l]; [congruence|]. specialize (Ub x (or_intror (or_introl eq_refl))). specialize (Hlo x (or_introl eq_refl)). lia.
Qed.
Lemma maxl_def m v reg l : wf m -> In v (all_nodes m) -> In (reg, l) (node_defs m v) -> In (reg, maxl (defs_in m v reg)) (node_defs m v).
Proof.
  intros W Hv H. apply defs_in_in, maxl_in.
  - apply defs_in_in in H. intros E. rewrite E in H. contradiction.
  - intros x Hx. apply defs_in_in in Hx. eapply wf_lo; [exact W|]. eapply node_defs_all; eauto.
Qed.
Lemma DB_in m v loc : wf m -> In v (all_nodes m) -> (In loc (DB m v) <-> exists reg, last_def m v reg loc).
Proof.
  intros W Hv. unfold DB, regs_of. rewrite in_map_iff. split.
  - intros (reg & <- & Hr). apply in_map_iff in Hr as ([r l] & <- & H). exists r. split; [|reflexivity]. now apply (maxl_def m v r l).
  - intros (reg & Hd & ->). exists reg. split; [reflexivity|]. apply in_map_iff. exists (reg, maxl (defs_in m v reg)). auto.
Qed.

Lemma sucs_real m v x : wf m -> In v (all_nodes m) -> In x (sucs m v) -> real m x.
Proof.
  intros W Hv Hx. unfold sucs in Hx. destruct (v =? dummy m) eqn:E.
  - destruct Hx as [<-|[]]. apply W.
  - apply all_nodes_in in Hv. apply Z.eqb_neq in E. unfold dummy in E. eapply wf_sucs; eauto. unfold real. lia.
Qed.
Lemma preds_in m v p : In p (preds m v) <-> In p (all_nodes m) /\ In v (sucs m p).
Proof. unfold preds. rewrite filter_In, memz_spec. tauto. Qed.
Lemma real_all m v : real m v -> In v (all_nodes m).
Proof. intros H. apply all_nodes_in. unfold real in H. lia. Qed.
Lemma dummy_no_preds m p : wf m -> ~ In p (preds m (dummy m)).
Proof. intros W H. apply preds_in in H as [H1 H2]. apply (sucs_real m p _ W H1) in H2. unfold real, dummy in H2. lia. Qed.
Lemma enqueue_in : forall ss w x, In x (enqueue w ss) <-> In x w \/ In x ss.
Proof.
  induction ss as [|y ss IH]; intros w x; cbn [enqueue In]; [tauto|]. rewrite IH. destruct (memz y w) eqn:E.
  - apply memz_spec in E. split; [tauto|]. intros [H|[<-|H]]; auto.
  - rewrite in_app_iff. cbn [In]. tauto.
Qed.

Definition sized (m : method) (s : state) : Prop :=
  length (st_R s) = length (all_nodes m) /\ length (st_A s) = length (all_nodes m).
Definition sound (m : method) (s : state) : Prop :=
  (forall v loc, In loc (getR s v) -> exists reg, reach_in m reg loc v) /\
  (forall v loc, In loc (getA s v) -> In v (all_nodes m) /\ exists reg, reach_out m reg loc v).
Definition inflow (m : method) (s : state) (v : Z) : list Z := flat_map (getA s) (preds m v).
Definition transfer (m : method) (s : state) (v : Z) : list Z :=
  filter (fun loc => negb (memz loc (killed m v))) (getR s v) ++ DB m v.
Definition stable (m : method) (s : state) (v : Z) : Prop :=
  (forall loc, In loc (inflow m s v) -> In loc (getR s v)) /\ (forall loc, In loc (transfer m s v) -> In loc (getA s v)).
Definition inv (m : method) (work : list Z) (s : state) : Prop :=
  sized m s /\ sound m s /\ (forall v, In v work -> real m v) /\
  (forall v, In v (all_nodes m) -> ~ In v work -> stable m s v).

Lemma inflow_sound m s v loc : sound m s -> In loc (inflow m s v) -> exists reg, reach_in m reg loc v.
Proof.
  intros [_ SA] H. unfold inflow in H. apply in_flat_map in H as (p & Hp & Hl). apply preds_in in Hp as [Hp Hs].
  destruct (SA p loc Hl) as (_ & reg & [Hd|[Hr Hn]]); exists reg; [eapply ri_edge | eapply ri_step]; eauto.
Qed.
Lemma inflow_incl m s s' v : (forall p, In v (sucs m p) -> incl (getA s p) (getA s' p)) -> incl (inflow m s v) (inflow m s' v).
Proof. intros H loc Hl. apply in_flat_map in Hl as (p & Hp & Hl). apply in_flat_map. exists p. split; [exact Hp | apply H; [apply preds_in, Hp | exact Hl]]. Qed.
Lemma transfer_in m s v loc : wf m -> In v (all_nodes m) ->
  (In loc (transfer m s v) <-> In loc (getR s v) /\ ~ In loc (killed m v) \/ exists reg, last_def m v reg loc).
Proof. intros W Hv. unfold transfer. now rewrite in_app_iff, filter_In, negb_true_iff, memz_false, (DB_in m v loc W Hv). Qed.
Lemma transfer_sound m s v loc : wf m -> In v (all_nodes m) -> sound m s -> In loc (transfer m s v) -> exists reg, reach_out m reg loc v.
Proof.
  intros W Hv [SR _] H. apply (transfer_in m s v loc W Hv) in H as [[H K]|(reg & Hd)]; [|exists reg; now left].
  destruct (SR v loc H) as (reg & Hr). exists reg. right. split; [exact Hr|]. intros Hd. apply K, killed_in. exists reg.
  split; [exact Hd | eapply reach_in_is_def; eauto].
Qed.

Definition setR (s : state) (v : Z) (x : list Z) : state := {| st_R := updz (st_R s) v x; st_A := st_A s |}.
Definition setA (s : state) (v : Z) (x : list Z) : state := {| st_R := st_R s; st_A := updz (st_A s) v x |}.
Lemma sized_setR m s v x : sized m s -> sized m (setR s v x).
Proof. intros [S1 S2]. split; [cbn [setR st_R]; now rewrite updz_length | exact S2]. Qed.
Lemma sized_setA m s v x : sized m s -> sized m (setA s v x).
Proof. intros [S1 S2]. split; [exact S1 | cbn [setA st_A]; now rewrite updz_length]. Qed.
Lemma node_index m v : In v (all_nodes m) -> 0 <= v < Z.of_nat (length (all_nodes m)).
Proof. rewrite all_nodes_in, all_nodes_length. lia. Qed.
Lemma getR_setR m s v x u : sized m s -> In v (all_nodes m) -> getR (setR s v x) u = if u =? v then x else getR s u.
Proof. intros [S _] H. apply nthz_updz. rewrite S. now apply node_index. Qed.
Lemma getA_setA m s v x u : sized m s -> In v (all_nodes m) -> getA (setA s v x) u = if u =? v then x else getA s u.
Proof. intros [_ S] H. apply nthz_updz. rewrite S. now apply node_index. Qed.

(* half a pass over node: a cell of node, holding old, is brought up to src.  Either it covers src already and nothing
   happens, or put writes src there as a set, which differs from old, and the successors of node are queued *)
Definition half (m : method) (node : Z) (src old : list Z) (put : list Z -> state) (w : list Z) (s : state) (w1 : list Z) (s1 : state) : Prop :=
  w1 = w /\ s1 = s /\ incl src old \/
  w1 = enqueue w (sucs m node) /\ s1 = put (set_of src) /\ set_eqb (set_of src) old = false.
(* a pass: R[node] is brought up to what flows in, then A[node] up to what the new R[node] lets through *)
Lemma step_halves {m node rest s w s'} : step m node rest s = (w, s') -> exists w1 s1,
  half m node (inflow m s node) (getR s node) (setR s node) rest s w1 s1 /\
  half m node (transfer m s1 node) (getA s1 node) (setA s1 node) w1 s1 w s'.
Proof.
  assert (Cov : forall src old, set_eqb (set_of src) old = true -> incl src old).
  { intros src old E x Hx. apply (proj1 (set_eqb_spec _ _) E), set_of_in, Hx. }
  unfold step. change (flat_map (getA s) (preds m node)) with (inflow m s node).
  destruct (match set_of (inflow m s node) with [] => _ | _ :: _ => _ end) as [s1 w1] eqn:E1. intros E. exists w1, s1. split; [clear E; revert E1 | clear E1; revert E].
  - destruct (set_of (inflow m s node)) as [|x0 nr] eqn:EN.
    + intros [= <- <-]. left. repeat split. intros x Hx. apply set_of_in in Hx. rewrite EN in Hx. contradiction.
    + cbv match. destruct (set_eqb _ _) eqn:Eq; intros [= <- <-]; rewrite <- EN in *; [left | right]; auto.
  - change (filter _ (getR s1 node) ++ DB m node) with (transfer m s1 node).
    destruct (set_eqb _ _) eqn:EA; intros [= <- <-]; [left | right]; auto.
Qed.
Lemma half_queue {m node src old put w s w1 s1} : half m node src old put w s w1 s1 ->
  (length w1 <= length w + length (sucs m node))%nat /\ forall x, In x w1 -> In x w \/ In x (sucs m node).
Proof.
  intros [(-> & _)|(-> & _)]; [split; [lia | now left]|]. split; [|intros x; apply enqueue_in].
  generalize (sucs m node). intros ss. revert w. induction ss as [|y ss IH]; intros w; cbn [enqueue length]; [lia|].
  specialize (IH (if memz y w then w else w ++ [y])). destruct (memz y w); [lia | rewrite app_length in IH; cbn [length] in IH; lia].
Qed.

Lemma inv_halfR {m node w s w1 s1} : wf m -> inv m (node :: w) s ->
  half m node (inflow m s node) (getR s node) (setR s node) w s w1 s1 ->
  inv m (node :: w1) s1 /\ incl (inflow m s1 node) (getR s1 node).
Proof.
  intros W I [(-> & -> & H)|(-> & -> & _)]; [now split|]. destruct I as (Sz & So & Wk & St).
  assert (An : In node (all_nodes m)) by (apply real_all, Wk; now left).
  assert (G := fun v => getR_setR m s node (set_of (inflow m s node)) v Sz An).
  split; [|rewrite G, Z.eqb_refl; intros x; apply set_of_in]. split; [now apply sized_setR|]. split; [|split].
  - split; [|apply So]. intros v loc. rewrite G. destruct (Z.eqb_spec v node) as [->|_]; [|apply So].
    rewrite set_of_in. now apply inflow_sound.
  - intros v [<-|Hv]; [apply Wk; now left|]. apply enqueue_in in Hv as [Hv|Hv]; [apply Wk; now right | eapply sucs_real; eauto].
  - intros v Hv Hw. cbn [In] in Hw. rewrite enqueue_in in Hw. destruct (St v Hv) as [S1 S2]; [cbn [In]; tauto|].
    unfold stable, transfer. rewrite G. destruct (Z.eqb_spec v node) as [->|_]; [destruct Hw; now left | now split].
Qed.
(* the second half takes node off the list: it is stable now, or a successor of itself and queued again *)
Lemma inv_halfA {m node w s w1 s1} : wf m -> inv m (node :: w) s -> incl (inflow m s node) (getR s node) ->
  half m node (transfer m s node) (getA s node) (setA s node) w s w1 s1 -> inv m w1 s1.
Proof.
  intros W (Sz & So & Wk & St) HR H. assert (An : In node (all_nodes m)) by (apply real_all, Wk; now left).
  destruct H as [(-> & -> & HA)|(-> & -> & _)].
  - split; [exact Sz|]. split; [exact So|]. split; [intros v Hv; apply Wk; now right|].
    intros v Hv Hw. destruct (Z.eq_dec v node) as [->|Hne]; [now split|]. apply St; [exact Hv|]. intros [E|H]; [congruence | auto].
  - set (x := set_of (transfer m s node)). assert (G := fun v => getA_setA m s node x v Sz An).
    split; [now apply sized_setA|]. split; [|split].
    + split; [apply So|]. intros v loc. rewrite G. destruct (Z.eqb_spec v node) as [->|_]; [|apply So].
      intros H. split; [exact An | apply (transfer_sound m s node loc W An So), set_of_in, H].
    + intros v Hv. apply enqueue_in in Hv as [Hv|Hv]; [apply Wk; now right | eapply sucs_real; eauto].
    + intros v Hv Hw. rewrite enqueue_in in Hw.
      (* node is no predecessor of v, so nothing new flows into v *)
      assert (IF : incl (inflow m (setA s node x) v) (inflow m s v)).
      { apply inflow_incl. intros p Hp. rewrite G. destruct (Z.eqb_spec p node) as [->|_]; [tauto | apply incl_refl]. }
      unfold stable. change (transfer m (setA s node x) v) with (transfer m s v). rewrite G.
      destruct (Z.eqb_spec v node) as [->|Hne].
      * split; [intros loc Hl; apply HR, IF, Hl | intros loc; apply set_of_in].
      * destruct (St v Hv) as [S1 S2]; [intros [E|H]; [congruence | tauto]|]. split; [intros loc Hl; apply S1, IF, Hl | exact S2].
Qed.
Lemma step_inv m node rest s w s' : wf m -> inv m (node :: rest) s -> step m node rest s = (w, s') -> inv m w s'.
Proof.
  intros W I E. destruct (step_halves E) as (w1 & s1 & H1 & H2).
  destruct (inv_halfR W I H1) as [I1 HR]. exact (inv_halfA W I1 HR H2).
Qed.

Lemma run_inv m : wf m -> forall fuel work s s', run fuel m work s = Some s' -> inv m work s -> inv m [] s'.
Proof.
  intros W. induction fuel as [|f IH]; intros work s s' H I.
  - destruct work; [injection H as <-; exact I | discriminate].
  - destruct work as [|node rest]; [injection H as <-; exact I|]. cbn [run] in H.
    destruct (step m node rest s) as [w s1] eqn:E. apply (IH _ _ _ H). eapply step_inv; eauto.
Qed.
Arguments run_inv m _ {fuel work s s'}.

Lemma nthz_blank {A} (l : list A) v : nthz (map (fun _ => @nil Z) l) v [] = [].
Proof.
  unfold nthz. destruct (v <? 0); [reflexivity|]. generalize (Z.to_nat v). induction l as [|x l IH]; intros [|k]; cbn [map nth]; auto.
Qed.
Lemma sized_init m : sized m (init_state m).
Proof. split; cbn [init_state st_R st_A]; [|rewrite updz_length]; apply map_length. Qed.
Lemma getR_init m v : getR (init_state m) v = [].
Proof. apply nthz_blank. Qed.
Lemma getA_init m v : getA (init_state m) v = if v =? dummy m then map snd (param_defs m) else [].
Proof.
  unfold getA, init_state. cbn [st_A]. rewrite nthz_updz, nthz_blank; [reflexivity|]. rewrite map_length. apply node_index, all_nodes_in.
  unfold dummy, nnodes. lia.
Qed.
Lemma fst_combine {A B} : forall (a : list A) (b : list B), length a = length b -> map fst (combine a b) = a.
Proof. induction a as [|x a IH]; intros [|y b] H; cbn in *; try lia; [reflexivity | f_equal; apply IH; lia]. Qed.
Lemma node_defs_dummy m : node_defs m (dummy m) = param_defs m.
Proof. unfold node_defs. now rewrite Z.eqb_refl. Qed.
Lemma dummy_all m : In (dummy m) (all_nodes m).
Proof. apply all_nodes_in. unfold dummy, nnodes. lia. Qed.
(* a parameter register has one definition in the dummy entry *)
Lemma param_last_def m reg loc : wf m -> In (reg, loc) (param_defs m) -> last_def m (dummy m) reg loc.
Proof.
  intros W H. rewrite <- node_defs_dummy in H. split; [exact H|].
  assert (E : (reg, loc) = (reg, maxl (defs_in m (dummy m) reg))); [|congruence].
  apply (NoDup_map_inj fst (node_defs m (dummy m))); [|exact H | now apply (maxl_def m _ reg loc W (dummy_all m)) | reflexivity].
  rewrite node_defs_dummy. unfold param_defs. rewrite fst_combine; [apply W | now rewrite map_length, seq_length].
Qed.
Lemma getA_init_last m v loc : wf m -> In loc (getA (init_state m) v) -> v = dummy m /\ exists reg, last_def m v reg loc.
Proof.
  intros W. rewrite getA_init. destruct (Z.eqb_spec v (dummy m)) as [->|_]; [|contradiction].
  intros H. apply in_map_iff in H as ([r l] & <- & H). split; [reflexivity|]. exists r. now apply param_last_def.
Qed.

Lemma init_inv m : wf m -> inv m (g_rpo m) (init_state m).
Proof.
  intros W. split; [apply sized_init|]. split; [|split; [apply W|]].
  - split; [intros v loc; rewrite getR_init; contradiction|]. intros v loc H. apply (getA_init_last m v loc W) in H as (-> & reg & H).
    split; [apply dummy_all|]. exists reg. now left.
  - intros v Hv Hn. apply all_nodes_in in Hv. pose proof (fun Rv => Hn (wf_rpo_all m W v Rv)) as Nr.
    assert (v = dummy m) as -> by (unfold real, dummy in *; lia). split.
    + intros loc H. apply in_flat_map in H as (p & Hp & _). exfalso. eapply dummy_no_preds; eauto.
    + intros loc H. apply (transfer_in m _ _ loc W (dummy_all m)) in H as [[H _]|(reg & Hd & _)]; [now rewrite getR_init in H|].
      rewrite getA_init, Z.eqb_refl. rewrite node_defs_dummy in Hd. apply in_map_iff. exists (reg, loc). auto.
Qed.

(* a state that is sound and stable everywhere holds exactly the path solution *)
Lemma stable_exact m s : wf m -> inv m [] s ->
  forall v loc, In v (all_nodes m) -> (In loc (getR s v) <-> exists reg, reach_in m reg loc v).
Proof.
  intros W (_ & [SR _] & _ & St) v loc _. split; [apply SR|]. intros (reg & Hr).
  assert (Flow : forall a v, In a (all_nodes m) -> In v (sucs m a) -> In loc (transfer m s a) -> In loc (getR s v)).
  { intros a x Ha Hs H. apply (St x); [apply real_all; eapply sucs_real; eauto | intros [] |]. apply in_flat_map. exists a.
    split; [now apply preds_in | now apply (St a Ha (fun F => F))]. }
  induction Hr as [a v Ha Hd Hs | u v Hu Hr IH Hn Hs].
  - apply (Flow a v Ha Hs), (transfer_in m s a loc W Ha). eauto.
  - apply (Flow u v Hu Hs), (transfer_in m s u loc W Hu). left. split; [exact IH|]. intros K. apply killed_in in K as (reg' & Hd' & Hi). apply Hn.
    now rewrite (def_reg_unique m reg reg' loc W (reach_in_is_def Hr) Hi).
Qed.
Lemma run_exact m fuel s : wf m -> run fuel m (g_rpo m) (init_state m) = Some s ->
  forall v loc, In v (all_nodes m) -> (In loc (getR s v) <-> exists reg, reach_in m reg loc v).
Proof. intros W H. exact (stable_exact m s W (run_inv m W H (init_inv m W))). Qed.
Theorem analysis_exact m s : wf m -> analysis m = Some s ->
  forall v loc, In v (all_nodes m) -> (In loc (getR s v) <-> exists reg, reach_in m reg loc v).
Proof. apply run_exact. Qed.

Definition prior_def (m : method) (v reg i d : Z) : Prop :=
  In (reg, d) (node_defs m v) /\ d < i /\ forall d', In (reg, d') (node_defs m v) -> d' < i -> d' <= d.
Definition no_prior (m : method) (v reg i : Z) : Prop := forall d', In (reg, d') (node_defs m v) -> ~ d' < i.
(* the definitions of reg that reach its use at instruction i of node v *)
Definition reaching_use (m : method) (v i reg d : Z) : Prop :=
  prior_def m v reg i d \/ (no_prior m v reg i /\ reach_in m reg d v).

(* the scan for the nearest earlier definition takes the largest loc below i *)
Lemma fold_prior_max i : forall l p0,
  fold_left (fun p d => if (p <? d) && (d <? i) then d else p) l p0 = fold_left Z.max (filter (fun d => d <? i) l) p0.
Proof.
  induction l as [|x l IH]; intros p0; cbn [fold_left filter]; [reflexivity|]. rewrite IH.
  destruct (x <? i); cbn [fold_left]; [|now rewrite andb_false_r]. rewrite andb_true_r. f_equal. destruct (Z.ltb_spec p0 x); lia.
Qed.
Lemma prior_spec m v reg i : wf m -> real m v ->
  let r := fold_left (fun p d => if (p <? d) && (d <? i) then d else p) (defs_in m v reg) (-1) in
  if 0 <=? r then forall d, prior_def m v reg i d <-> d = r else no_prior m v reg i.
Proof.
  intros W Rv. cbv zeta. rewrite fold_prior_max. set (l := filter (fun d => d <? i) (defs_in m v reg)).
  assert (L : forall d, In d l <-> In (reg, d) (node_defs m v) /\ d < i) by (intros d; unfold l; now rewrite filter_In, defs_in_in, Z.ltb_lt).
  destruct (fold_max_spec l (-1)) as [I Ub']. assert (Ub := fun d Hd => Ub' d (or_intror (proj2 (L d) Hd))).
  destruct (Z.leb_spec 0 (fold_left Z.max l (-1))) as [Pos|Neg].
  - destruct I as [E|H]; [lia|]. apply L in H as [H1 H2]. intros d. split.
    + intros (Hd & Hl & Hmax). specialize (Ub d (conj Hd Hl)). specialize (Hmax _ H1 H2). lia.
    + intros ->. split; [exact H1|]. split; [exact H2|]. intros d' Hd' Hl'. now apply Ub.
  - intros d Hd Hl. specialize (Ub d (conj Hd Hl)). pose proof (wf_pos m W v reg d Rv Hd). lia.
Qed.

Theorem use_defs_exact m s v i reg : wf m -> analysis m = Some s -> real m v ->
  match use_defs m s v i reg with
  | None => forall d, ~ is_def m reg d
  | Some ds => forall d, In d ds <-> reaching_use m v i reg d
  end.
Proof.
  intros W HA Rv. unfold use_defs. destruct (def_to_loc m reg) as [|x0 xs] eqn:E.
  - intros d Hd. apply def_to_loc_in in Hd. rewrite E in Hd. contradiction.
  - generalize (prior_spec m v reg i W Rv). cbv zeta. destruct (0 <=? _); intros P d.
    + unfold reaching_use. rewrite P. cbn [In]. split; [intros [<-|[]]; now left | intros [->|(Hnp & _)]; [now left|]].
      exfalso. destruct (proj2 (P _) eq_refl) as (H1 & H2 & _). exact (Hnp _ H1 H2).
    + rewrite filter_In, memz_spec, <- E, def_to_loc_in, (analysis_exact m s W HA v d (real_all m v Rv)). split.
      * intros [Hd (reg' & Hr)]. right. split; [exact P|]. now rewrite (def_reg_unique m reg reg' d W Hd (reach_in_is_def Hr)).
      * intros [(Hd & Hl & _)|(_ & Hr)]; [exfalso; eapply P; eauto|]. split; [eapply reach_in_is_def; eauto | eauto].
Qed.

Lemma distinctb_NoDup l : distinctb l = true -> NoDup l.
Proof.
  induction l as [|x l IH]; [constructor|]. cbn [distinctb]. intros H. apply andb_true_iff in H as [H1 H2].
  constructor; [apply negb_true_iff, memz_false in H1; exact H1 | auto].
Qed.
Lemma reals_in m v : In v (reals m) <-> real m v.
Proof. apply in_upto. Qed.
Lemma in_range_spec m x : in_range m x = true <-> real m x.
Proof. unfold in_range, real. lia. Qed.
Lemma wf_b_sound m : wf_b m = true -> wf m.
Proof.
  unfold wf_b. rewrite !andb_true_iff. intros ((((((((H1 & H2) & H3) & H4) & H5) & H6) & H7) & H8) & H9).
  rewrite forallb_forall in H3, H5, H6, H8, H9. constructor.
  - now apply distinctb_NoDup.
  - now apply distinctb_NoDup.
  - intros v x Hv Hx. apply reals_in in Hv. specialize (H3 v Hv). rewrite forallb_forall in H3. now apply in_range_spec, H3.
  - now apply in_range_spec.
  - intros v Hv. apply memz_spec, H5, reals_in, Hv.
  - intros v Hv. now apply in_range_spec, H6.
  - now apply Nat.eqb_eq.
  - intros r l H. specialize (H8 (r, l) H). cbn [snd] in H8. lia.
  - intros v r l Hv H. apply reals_in in Hv. specialize (H9 v Hv). rewrite forallb_forall in H9. specialize (H9 (r, l) H). cbn [snd] in H9. lia.
Qed.
