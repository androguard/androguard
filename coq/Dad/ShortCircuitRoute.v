(* C25 - from walks to what the stream observes: the structure below the entry unfolded into a tree (tree_of) and routed (route).
   A walk that ends at exit x makes every deep enough unfolding route to -1 - x (exit k is the identifier -1 - k), so for a chain
   the unfolded result of the passes routes every assignment of the comparisons as the unfolded chain does. *)
From Coq Require Import ZArith List Bool Lia.
Require Import V.Lib.Val V.Lib.Result V.Dad.ShortCircuitModel V.Dad.ShortCircuitGraph V.Dad.ShortCircuitDriver V.Dad.ShortCircuitSound.
Import ListNotations.
Open Scope Z_scope.

Lemma walk_mono : forall m g env i x, walk m g env i = Some x -> forall m', (m <= m')%nat -> walk m' g env i = Some x.
Proof. intros m g env i x H m' Hm. exact (walk_more m m' g env i x H Hm). Qed.
Lemma tree_route : forall m g env i x, walk m g env i = Some x -> route env (tree_of m g i) = -1 - x.
Proof.
  induction m as [|m IH]; intros g env i x H; [discriminate|]. cbn [walk tree_of] in *. destruct (lookup g i) as [n|].
  - cbn [route]. unfold next in H. destruct (eval env (g_cond n)); apply IH; exact H.
  - injection H as <-. reflexivity.
Qed.
Lemma deep_route {m g env i x} : walk m g env i = Some x -> forall F, (m <= F)%nat -> route env (tree_of F g i) = -1 - x.
Proof. intros H F HF. apply tree_route. exact (walk_mono _ _ _ _ _ H _ HF). Qed.

(* every chain whose targets are blocks other than block 0 or exits: when the chain, followed from block 0 under an assignment of
   the comparisons, ends at an exit, the result of the passes - unfolded deep enough - routes that assignment to the same exit,
   and so does the unfolded chain itself *)
Theorem struct_routes_like_the_chain : forall spec fuel env k x, chain_wf spec -> spec <> [] ->
  walk k (chain_graph spec) env 0 = Some x ->
  let r := struct fuel (chain_graph spec) (Z.of_nat (length spec)) 0 in
  exists F, forall F', (F <= F')%nat ->
    route env (tree_of F' (fst r) (snd r)) = -1 - x /\ route env (tree_of F' (chain_graph spec) 0) = -1 - x.
Proof.
  intros spec fuel env k x W NE Hk r. pose proof (proj1 (struct_keeps_chain_walks spec fuel W NE env x) k Hk) as Hm.
  exists k. intros F' HF. split; [exact (deep_route Hm F' HF) | exact (deep_route Hk F' HF)].
Qed.
Print Assumptions struct_routes_like_the_chain.

(* ... in the very form obs_struct evaluates: when the chain ends within (blocks + 1) steps - every chain without a cycle does -,
   the tree obs_struct routes (the result of the passes unfolded (blocks + 2) deep) sends the assignment to the chain's exit *)
Theorem observed_route_is_the_chains : forall spec env x, chain_wf spec -> spec <> [] ->
  walk (S (length spec)) (chain_graph spec) env 0 = Some x ->
  let r := struct (S (length spec)) (chain_graph spec) (Z.of_nat (length spec)) 0 in
  route env (tree_of (S (S (length spec))) (fst r) (snd r)) = -1 - x.
Proof.
  intros spec env x W NE Hk r. pose proof (proj1 (struct_keeps_chain_walks spec (S (length spec)) W NE env x) _ Hk) as Hm.
  exact (deep_route Hm _ (Nat.le_succ_diag_r _)).
Qed.
Print Assumptions observed_route_is_the_chains.

(* the chain of ShortCircuitSound.d41_spec under the assignment "every comparison false" ends at the identifier -1, exit 0 *)
Example d41_routes : walk 4 (chain_graph d41_spec) (fun _ => false) 0 = Some (-1) /\
  route (fun _ => false) (tree_of 5 (fst (struct 4 (chain_graph d41_spec) 3 0)) (snd (struct 4 (chain_graph d41_spec) 3 0))) = 0.
Proof. split; vm_compute; reflexivity. Qed.
