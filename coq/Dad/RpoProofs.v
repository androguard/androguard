(* C19 - the depth-first numbering of coq/Dad/RpoModel.v: the finishing order holds exactly the nodes the entry reaches, each
   once and the entry last, and an edge leads to a node finished earlier or to one that reaches its source; so the numbers are
   1..n and ascend along every other edge.  One invariant over the visits in progress is carried through the fold over the
   successors; the count of the nodes not yet visited bounds the depth of the calls. *)
From Coq Require Import List Arith Bool Lia Permutation.
Require V.Lib.ListFacts.
Require Import V.Dad.RpoModel.
Import ListNotations.

Lemma mem_spec x l : reflect (In x l) (mem x l).
Proof. unfold mem. destruct (in_dec Nat.eq_dec x l); constructor; assumption. Qed.
Lemma fresh_iff x l : negb (mem x l) = true <-> ~ In x l.
Proof. destruct (mem_spec x l); cbn; intuition discriminate. Qed.

Lemma fold_step_none rec l : fold_left (step rec) l None = None.
Proof. induction l; simpl; auto. Qed.

(* an invariant that every call on an unvisited successor keeps is kept by the fold, which ends with all of them visited *)
Lemma fold_step_inv (rec : nat -> st -> option st) (P : st -> Prop) : forall l,
  (forall c s s', In c l -> P s -> ~ In c (fst s) -> rec c s = Some s' -> P s' /\ incl (c :: fst s) (fst s')) ->
  forall s s', P s -> fold_left (step rec) l (Some s) = Some s' -> P s' /\ incl (l ++ fst s) (fst s').
Proof.
  induction l as [|c l IH]; intros Hrec s s' Hs Hf; cbn [fold_left step] in Hf.
  - injection Hf as <-. split; [exact Hs | apply incl_refl].
  - specialize (IH (fun c' s1 s2 Hc' => Hrec c' s1 s2 (or_intror Hc'))).
    destruct (mem_spec c (fst s)) as [Hc|Hc].
    + destruct (IH s s' Hs Hf) as [Hp Hi]. split; [exact Hp|].
      intros x [<-|Hx]; apply Hi; [apply in_or_app; right; exact Hc | exact Hx].
    + destruct (rec c s) as [s1|] eqn:Hr; [|rewrite fold_step_none in Hf; discriminate].
      destruct (Hrec c s s1 (or_introl eq_refl) Hs Hc Hr) as [Hp1 Hi1].
      destruct (IH s1 s' Hp1 Hf) as [Hp Hi]. split; [exact Hp|].
      intros x Hx. apply Hi. specialize (Hi1 x). cbn [app In] in *. rewrite in_app_iff in *. tauto.
Qed.
Lemma fold_step_some (rec : nat -> st -> option st) (P : st -> Prop) : forall l,
  (forall c s, In c l -> P s -> ~ In c (fst s) -> exists s', rec c s = Some s' /\ P s') ->
  forall s, P s -> fold_left (step rec) l (Some s) <> None.
Proof.
  induction l as [|c l IH]; intros Hrec s Hs; cbn [fold_left step]; [discriminate|].
  specialize (IH (fun c' s1 Hc' => Hrec c' s1 (or_intror Hc'))).
  destruct (mem_spec c (fst s)) as [Hc|Hc]; [apply IH, Hs|].
  destruct (Hrec c s (or_introl eq_refl) Hs Hc) as (s1 & -> & Hs1). apply IH, Hs1.
Qed.

Section DFS.
Variable sucs : nat -> list nat.
Notation dfs := (dfs sucs).

Inductive reach : nat -> nat -> Prop :=
| reach_refl x : reach x x
| reach_step x y z : reach x y -> In z (sucs y) -> reach x z.
Lemma reach_trans x y z : reach x y -> reach y z -> reach x z.
Proof. intros Hxy Hyz. induction Hyz; eauto using reach. Qed.
Lemma reach_closed (A : nat -> Prop) :
  (forall x, A x -> forall y, In y (sucs x) -> A y) -> forall a b, reach a b -> A a -> A b.
Proof. intros H a b R Ha. induction R; eauto. Qed.

(* every edge x->y of a finished node x: y finished before x, or y reaches x *)
Definition good (o : list nat) : Prop :=
  forall a x b, o = a ++ x :: b -> forall y, In y (sucs x) -> In y a \/ reach y x.

Lemma good_app_last o n :
  good o -> (forall y, In y (sucs n) -> In y o \/ reach y n) -> good (o ++ [n]).
Proof.
  intros Hg Hn a x b E y Hy.
  destruct b as [|b0 b'] using rev_ind.
  - apply app_inj_tail in E as [-> ->]. auto.
  - clear IHb'. rewrite app_comm_cons, app_assoc in E. apply app_inj_tail in E as [E _].
    eapply Hg; eauto.
Qed.

Lemma dfs_unfold f n s : dfs (S f) n s =
  match fold_left (step (dfs f)) (sucs n) (Some (n :: fst s, snd s)) with
  | None => None | Some (vis, ord) => Some (vis, ord ++ [n]) end.
Proof. reflexivity. Qed.

Lemma dfs_mono : forall fuel n s s', dfs fuel n s = Some s' -> incl (n :: fst s) (fst s').
Proof.
  induction fuel as [|f IH]; intros n s s' Hd; [discriminate|]. rewrite dfs_unfold in Hd.
  destruct (fold_left _ _ _) as [[v o]|] eqn:Hf; [|discriminate]. injection Hd as <-.
  apply (fold_step_inv _ (fun _ => True)) in Hf as [_ Hi]; [|split; [exact I | eapply IH; eassumption] | exact I].
  intros x Hx. apply Hi, in_or_app. right. exact Hx.
Qed.
Arguments dfs_mono {fuel n s s'}.
Lemma dfs_last {fuel n s s'} : dfs fuel n s = Some s' -> exists o, snd s' = o ++ [n].
Proof.
  destruct fuel; [discriminate|]. rewrite dfs_unfold.
  destruct (fold_left _ _ _) as [[v o]|]; [|discriminate]. intros [= <-]. exists o. reflexivity.
Qed.

(* stk holds the nodes whose visit is in progress: a node is visited when it is finished or in progress;
   the successors of finished nodes have all been visited *)
Definition inv (stk : list nat) (s : st) : Prop :=
  let (vis, ord) := s in
  (forall x, In x vis <-> In x (ord ++ stk)) /\ NoDup (ord ++ stk) /\ good ord /\
  (forall x, In x ord -> incl (sucs x) vis).

Lemma inv_start n stk vis ord : inv stk (vis, ord) -> ~ In n vis -> inv (n :: stk) (n :: vis, ord).
Proof.
  intros (Hv & Hnd & Hg & Hc) Hn. split; [|split; [|split; [exact Hg|]]].
  - intros x. rewrite in_app_iff. cbn [In]. rewrite Hv, in_app_iff. tauto.
  - apply (NoDup_Add (Add_app n ord stk)). split; [exact Hnd|]. intros H. apply Hn, Hv, H.
  - intros x Hx y Hy. right. exact (Hc x Hx y Hy).
Qed.
(* n finishes once its successors are visited; the nodes in progress all reach n, being its callers *)
Lemma inv_finish n stk v o :
  inv (n :: stk) (v, o) -> incl (sucs n) v -> (forall g, In g stk -> reach g n) -> inv stk (v, o ++ [n]).
Proof.
  intros (Hv & Hnd & Hg & Hc) Hs Hr. unfold inv. rewrite <- !app_assoc.
  split; [exact Hv|]. split; [exact Hnd|]. split.
  - apply good_app_last; [exact Hg|]. intros y Hy.
    apply Hs, Hv, in_app_or in Hy as [Hy|[<-|Hy]]; [left; exact Hy | right; apply reach_refl | right; apply Hr, Hy].
  - intros x Hx. apply in_app_or in Hx as [Hx|[<-|[]]]; [apply Hc, Hx | exact Hs].
Qed.

Lemma dfs_inv : forall fuel n stk s s',
  dfs fuel n s = Some s' -> inv stk s -> ~ In n (fst s) -> (forall g, In g stk -> reach g n) ->
  inv stk s' /\ forall x, In x (snd s') -> In x (snd s) \/ reach n x.
Proof.
  induction fuel as [|f IH]; intros n stk [vis ord] s' Hd Hi Hn Hg; [discriminate|].
  rewrite dfs_unfold in Hd. cbn [fst snd] in *.
  destruct (fold_left _ _ _) as [[v o]|] eqn:Hf; [|discriminate]. injection Hd as <-.
  apply (fold_step_inv _ (fun s1 => inv (n :: stk) s1 /\ forall x, In x (snd s1) -> In x ord \/ reach n x))
    in Hf as [[Hi' Hr] Hs].
  - split.
    + apply inv_finish; [exact Hi' | | exact Hg]. intros y Hy. apply Hs, in_or_app. left. exact Hy.
    + intros x Hx. apply in_app_or in Hx as [Hx|[<-|[]]]; [apply Hr, Hx | right; apply reach_refl].
  - intros c s1 s2 Hc [Hi1 Hr1] Hc1 Hd1. split; [|exact (dfs_mono Hd1)].
    assert (Hnc : reach n c) by (eapply reach_step; [apply reach_refl | exact Hc]).
    destruct (IH c (n :: stk) s1 s2 Hd1 Hi1 Hc1) as [Hi2 Hr2].
    { intros g [<-|Hg']; [exact Hnc | eapply reach_trans; [apply Hg, Hg' | exact Hnc]]. }
    split; [exact Hi2|]. intros x Hx.
    destruct (Hr2 x Hx) as [Hx'|Hx']; [apply Hr1, Hx' | right; eapply reach_trans; eassumption].
  - split; [apply inv_start; assumption | left; assumption].
Qed.
Arguments dfs_inv {fuel n} stk {s s'}.

Theorem post_order_ok fuel entry vis ord :
  dfs fuel entry ([], []) = Some (vis, ord) ->
  good ord /\ NoDup ord /\ (exists new, ord = new ++ [entry]) /\
  (forall x, In x ord <-> reach entry x).
Proof.
  intros H. destruct (dfs_last H) as [new E].
  destruct (dfs_inv [] H) as [(Hv & Hnd & Hg & Hc) Hr]; cbn [fst snd] in *.
  - split; [reflexivity|]. split; [constructor|]. split; [|intros x []]. intros [|] ? ? [=].
  - intros [].
  - intros g [].
  - rewrite app_nil_r in *. split; [exact Hg|]. split; [exact Hnd|]. split; [exists new; exact E|].
    intros x. split.
    + intros Hx. destruct (Hr x Hx) as [[]|R]. exact R.
    + intros R. apply (reach_closed (fun y => In y ord)) with (a := entry); [|exact R|].
      * intros a Ha b Hb. apply Hv, (Hc a Ha b Hb).
      * rewrite E. apply in_or_app. right. left. reflexivity.
Qed.

(* termination: every nested call starts at a node of nodes not yet visited, so their count bounds the depth *)
Variable nodes : list nat.
Hypothesis nodes_closed : forall x, In x nodes -> forall y, In y (sucs x) -> In y nodes.

Definition unvisited (vis : list nat) : nat := length (filter (fun x => negb (mem x vis)) nodes).

Lemma unvisited_le vis : unvisited vis <= length nodes.
Proof. apply ListFacts.filter_length_le. Qed.
Lemma unvisited_mono {v1 v2} : incl v1 v2 -> unvisited v2 <= unvisited v1.
Proof. intros H. apply ListFacts.filter_length_mono. intros x _. rewrite !fresh_iff. intros Hx Hin. exact (Hx (H x Hin)). Qed.
Lemma unvisited_visit n vis : In n nodes -> ~ In n vis -> unvisited (n :: vis) < unvisited vis.
Proof.
  intros Hn Hv. apply (ListFacts.filter_length_mono_lt nodes n); [|exact Hn| |apply fresh_iff, Hv].
  - intros x _. rewrite !fresh_iff. intros Hx Hin. apply Hx. right. exact Hin.
  - apply not_true_iff_false. rewrite fresh_iff. intros H. apply H. left. reflexivity.
Qed.

Lemma dfs_terminates : forall fuel n vis ord,
  In n nodes -> ~ In n vis -> unvisited vis <= fuel -> dfs fuel n (vis, ord) <> None.
Proof.
  induction fuel as [|f IH]; intros n vis ord Hn Hv Hu; pose proof (unvisited_visit n vis Hn Hv) as Hlt; [lia|].
  rewrite dfs_unfold. cbn [fst snd]. destruct (fold_left _ _ _) as [[v o]|] eqn:Hf; [discriminate|]. exfalso. revert Hf.
  apply (fold_step_some _ (fun s => incl (n :: vis) (fst s))); [|apply incl_refl].
  intros c [v o] Hc Hs Hcv. cbn [fst] in *. destruct (dfs f c (v, o)) as [s'|] eqn:Hd.
  - exists s'. split; [reflexivity|]. apply dfs_mono in Hd. intros x Hx. apply Hd. right. apply Hs, Hx.
  - exfalso. revert Hd. apply IH; [exact (nodes_closed n Hn c Hc) | exact Hcv|]. pose proof (unvisited_mono Hs). lia.
Qed.

Theorem post_order_terminates entry : In entry nodes ->
  exists ord, post_order sucs (S (length nodes)) entry = Some ord.
Proof.
  intros He. unfold post_order.
  destruct (dfs (S (length nodes)) entry ([], [])) as [[v o]|] eqn:E; [exists o; reflexivity|].
  exfalso. revert E. apply dfs_terminates; [exact He | intros [] |]. pose proof (unvisited_le []). lia.
Qed.
End DFS.

Lemma index_from_app_at : forall a b k x, ~ In x a -> index_from k x (a ++ x :: b) = Some (k + length a).
Proof.
  induction a as [|z a IH]; intros b k x Hx; cbn [app index_from length].
  - rewrite Nat.eqb_refl. f_equal. lia.
  - destruct (Nat.eqb_spec x z) as [->|_]; [exfalso; apply Hx; left; reflexivity|].
    rewrite IH by (intros J; apply Hx; right; exact J). f_equal. lia.
Qed.
Lemma num_at {a x b} : NoDup (a ++ x :: b) -> num (S (length (a ++ x :: b))) (a ++ x :: b) x = S (length b).
Proof.
  intros H. apply NoDup_remove_2 in H. unfold num, po. rewrite index_from_app_at.
  - rewrite app_length. cbn [length]. lia.
  - intros J. apply H, in_or_app. left. exact J.
Qed.
Lemma num_rev_seq : forall l a, NoDup (a ++ l) ->
  map (num (S (length (a ++ l))) (a ++ l)) l = rev (seq 1 (length l)).
Proof.
  induction l as [|x l IH]; intros a H; [reflexivity|].
  cbn [map length]. rewrite seq_S, rev_unit, (num_at H). f_equal.
  revert H. change (a ++ x :: l) with (a ++ [x] ++ l). rewrite app_assoc. apply IH.
Qed.

Section Numbering.
Variable sucs : nat -> list nat.
Variable nodes : list nat.
Variable entry : nat.
Hypothesis nodes_nodup : NoDup nodes.
Hypothesis nodes_closed : forall x, In x nodes -> forall y, In y (sucs x) -> In y nodes.
Hypothesis entry_in : In entry nodes.
Hypothesis rooted : forall x, In x nodes -> reach sucs entry x.

Theorem rpo_numbering :
  exists ord, post_order sucs (S (length nodes)) entry = Some ord /\
    Permutation ord nodes /\
    num (S (length nodes)) ord entry = 1 /\
    Permutation (map (num (S (length nodes)) ord) nodes) (seq 1 (length nodes)) /\
    (forall x y, In x nodes -> In y (sucs x) ->
       num (S (length nodes)) ord x < num (S (length nodes)) ord y \/ reach sucs y x).
Proof.
  destruct (post_order_terminates sucs nodes nodes_closed entry entry_in) as (ord & Hpo).
  exists ord. split; [exact Hpo|].
  unfold post_order in Hpo.
  destruct (dfs sucs (S (length nodes)) entry ([], [])) as [[vis ord0]|] eqn:Hd; [|discriminate].
  injection Hpo as ->.
  destruct (post_order_ok sucs _ _ _ _ Hd) as (Hgood & Hnd & (new & Enew) & Hreach).
  assert (Hperm : Permutation ord nodes).
  { apply NoDup_Permutation; [exact Hnd | exact nodes_nodup|]. intros x. rewrite Hreach.
    split; [|apply rooted]. intros R. exact (reach_closed sucs _ nodes_closed _ _ R entry_in). }
  rewrite <- (Permutation_length Hperm).
  split; [exact Hperm|]. split; [|split].
  - (* the entry finishes last *)
    subst ord. exact (num_at Hnd).
  - rewrite <- Hperm. rewrite (num_rev_seq ord [] Hnd : map (num (S (length ord)) ord) ord = _).
    apply Permutation_sym, Permutation_rev.
  - intros x y Hx Hy. apply (Permutation_in _ (Permutation_sym Hperm)), in_split in Hx as (a & b & ->).
    destruct (Hgood a x b eq_refl y Hy) as [Hya|R]; [left | right; exact R].
    apply in_split in Hya as (a1 & a2 & ->). rewrite (num_at Hnd).
    rewrite <- app_assoc in *. cbn [app] in *. rewrite (num_at Hnd), app_length. cbn [length]. lia.
Qed.

(* Graph.rpo lists the nodes by increasing number: it is the finishing order reversed *)
Lemma rpo_list_rooted ord : Permutation ord nodes -> rpo_list nodes ord = rev ord.
Proof.
  intros Hp. unfold rpo_list. rewrite ListFacts.filter_nil; [reflexivity|]. intros x Hx.
  apply not_true_iff_false. rewrite fresh_iff. intros H. exact (H (Permutation_in x (Permutation_sym Hp) Hx)).
Qed.
End Numbering.

Lemma rpo_example :
  let sucs := adj_sucs [[1]; [2]; [1; 3]; []] [[]; [3]; []; []] in
  let nodes := [0; 1; 2; 3] in
  NoDup nodes /\ (forall x, In x nodes -> forall y, In y (sucs x) -> In y nodes) /\
  (forall x, In x nodes -> reach sucs 0 x) /\
  post_order sucs 5 0 = Some [3; 2; 1; 0] /\ map (num 5 [3; 2; 1; 0]) nodes = [1; 2; 3; 4].
Proof.
  intros sucs nodes.
  assert (R1 : reach sucs 0 1) by (eapply reach_step; [apply reach_refl | left; reflexivity]).
  assert (R2 : reach sucs 0 2) by (eapply reach_step; [exact R1 | left; reflexivity]).
  assert (R3 : reach sucs 0 3) by (eapply reach_step; [exact R2 | right; left; reflexivity]).
  split; [repeat constructor; simpl; intuition discriminate|]. split; [|split; [|split; reflexivity]].
  - intros x Hx y Hy. simpl in Hx. destruct Hx as [<-|[<-|[<-|[<-|[]]]]]; simpl in Hy; intuition (subst; simpl; auto).
  - intros x Hx. simpl in Hx. destruct Hx as [<-|[<-|[<-|[<-|[]]]]]; [apply reach_refl | exact R1 | exact R2 | exact R3].
Qed.
