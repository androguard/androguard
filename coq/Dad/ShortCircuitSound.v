(* C25 - the driver of short_circuit_struct keeps every walk: the invariants the merge theorem needs (a pointer between graph
   nodes is an edge; identifiers from the counter on are unused; nothing points at the entry) are kept by every merge, so every
   pass, and the passes until nothing changes, leave a graph whose walks from the entry end where those of the original did *)
From Coq Require Import ZArith List Bool Lia.
Require Import V.Lib.Val V.Lib.Result V.Lib.ListFacts V.Dad.ShortCircuitModel V.Dad.ShortCircuitGraph V.Dad.ShortCircuitDriver.
Import ListNotations.
Open Scope Z_scope.

Definition unused_from (g : graph) (m : Z) : Prop := forall m', m <= m' -> fresh g m'.
Definition no_pred (g : graph) (e : Z) : Prop := forall k n, lookup g k = Some n -> points_to n e = false.
(* the walks from e in g and from e' in g' end at the same exits: a walk of g that ends within n steps is matched by a walk of g'
   that ends at the same exit within the same n steps (merging never lengthens a walk), and g' has no other walks *)
Definition same_walks (g : graph) (e : Z) (g' : graph) (e' : Z) : Prop :=
  forall env x, (forall n, walk n g env e = Some x -> walk n g' env e' = Some x) /\
                ((exists n, walk n g' env e' = Some x) -> exists n, walk n g env e = Some x).
Lemma same_walks_refl g e : same_walks g e g e.  Proof. intros env x. split; auto. Qed.
Lemma same_walks_trans g1 e1 g2 e2 g3 e3 : same_walks g1 e1 g2 e2 -> same_walks g2 e2 g3 e3 -> same_walks g1 e1 g3 e3.
Proof. intros A B env x. destruct (A env x) as [A1 A2]. destruct (B env x) as [B1 B2]. split; [intros n W; exact (B1 n (A1 n W)) | intros W; exact (A2 (B2 W))]. Qed.
(* the weaker reading: the same exits are reached *)
Lemma same_walks_iff g e g' e' : same_walks g e g' e' -> forall env x, (exists n, walk n g env e = Some x) <-> (exists n, walk n g' env e' = Some x).
Proof. intros A env x. destruct (A env x) as [A1 A2]. split; [intros [n W]; exists n; exact (A1 n W) | exact A2]. Qed.

Lemma in_keep_first x : forall l seen, In x (keep_first l seen) <-> In x l /\ ~ In x seen.
Proof.
  induction l as [|y r IH]; intros seen; cbn [keep_first]; [cbn; tauto|].
  destruct (existsb (Z.eqb y) seen) eqn:E; [|cbn [In]]; rewrite IH; cbn [In].
  - apply existsb_eqb_In in E. split; [tauto|]. intros [[->|H] N]; tauto.
  - apply existsb_eqb_nIn in E. destruct (Z.eq_dec y x) as [->|Hne]; tauto.
Qed.
Lemma in_dests_of a b na nb x : has_edge na x = true \/ has_edge nb x = true -> is_ab a b x = false -> In x (dests_of a b na nb).
Proof.
  intros H E. apply in_keep_first. split; [|tauto]. apply filter_In. split; [|now rewrite E].
  apply in_or_app. destruct H as [H|H]; apply has_edge_iff in H; tauto.
Qed.

Lemma in_merge_old a b ab g k n : In (k, n) (map (redirect a b ab) g) -> exists n0, In (k, n0) g /\ n = snd (redirect a b ab (k, n0)).
Proof. intros ([k0 n0] & E & Hin)%in_map_iff. rewrite redirect_key in E. injection E as -> <-. eauto. Qed.

Section Keep.
Variables (g : graph) (a b ab : Z) (na nb : gnode) (c : cond) (t f : Z).
Hypothesis Ha : lookup g a = Some na.
Hypothesis Hb : lookup g b = Some nb.
Hypothesis La : g_live na = true.
Hypothesis Lb : g_live nb = true.
Hypothesis Hab : a <> b.
Hypothesis Pab : points_to na b = true.
Hypothesis Pt : points_to na t = true \/ points_to nb t = true.
Hypothesis Pf : points_to na f = true \/ points_to nb f = true.
Hypothesis Hunused : unused_from g ab.
Hypothesis Hedges : edges_ok g.
Hypothesis Honly : forall k n, lookup g k = Some n -> g_live n = true -> g_catch n = false -> k <> a -> k <> b -> points_to n b = false.
Let g' := merge g a b ab c t f (g_catch na) (dests_of a b na nb).

Lemma pointer_below k n x m' : In (k, n) g -> points_to n x = true -> ab <= m' -> x <> m'.
Proof. intros Hin [<-|<-]%points_to_iff Hm; apply (proj2 (Hunused m' Hm) k n Hin). Qed.
Lemma new_pointers {d x} : points_to {| g_cond := c; g_true := t; g_false := f; g_catch := g_catch na; g_live := true; g_sucs := d |} x = true ->
  points_to na x = true \/ points_to nb x = true.
Proof. intros [<-|<-]%points_to_iff; assumption. Qed.
Lemma pair_below x m' : points_to na x = true \/ points_to nb x = true -> ab <= m' -> x <> m'.
Proof. intros [P|P]; [exact (pointer_below a na x m' (lookup_in _ _ _ Ha) P) | exact (pointer_below b nb x m' (lookup_in _ _ _ Hb) P)]. Qed.
Lemma merge_node k n : lookup g' k = Some n ->
  (k = ab /\ n = {| g_cond := c; g_true := t; g_false := f; g_catch := g_catch na; g_live := true; g_sucs := dests_of a b na nb |}) \/
  (k <> ab /\ exists n0, lookup g k = Some n0 /\ n = snd (redirect a b ab (k, n0))).
Proof.
  unfold g'. rewrite lookup_merge by apply (Hunused ab), Z.le_refl. destruct (Z.eqb_spec k ab) as [->|Hk]; [intros [= <-]; now left|].
  destruct (lookup g k) as [n0|]; [|discriminate]. intros [= <-]. right. eauto.
Qed.

Lemma keep_unused : unused_from g' (ab + 1).
Proof using Ha Hb Pt Pf Hunused.
  intros m' Hm. split.
  - unfold g'. rewrite lookup_merge by apply (Hunused ab), Z.le_refl. replace (m' =? ab) with false by lia.
    destruct (Hunused m' ltac:(lia)) as [-> _]. reflexivity.
  - intros k n Hin. assert (Q : forall x, points_to n x = true -> x <> m').
    { intros x P. apply in_app_iff in Hin as [Hin|[Hin|[]]].
      - destruct (in_merge_old _ _ _ _ _ _ Hin) as (n0 & Hin0 & ->).
        destruct (redirect_pointers _ _ _ _ _ _ P) as [P0|[-> _]]; [exact (pointer_below k n0 x m' Hin0 P0 ltac:(lia)) | lia].
      - injection Hin as <- <-. apply (pair_below x m' (new_pointers P)). lia. }
    split; apply Q; [apply points_to_true | apply points_to_false].
Qed.

Lemma keep_no_pred e : no_pred g e -> e <> ab -> no_pred g' (if is_ab a b e then ab else e).
Proof using Ha Hb Hab Pab Pt Pf Hunused Honly.
  intros Hn He. assert (Eb : e <> b) by (intros ->; rewrite (Hn a na Ha) in Pab; discriminate).
  (* no block of g points at the new entry either: ab is unused *)
  assert (Old : no_pred g (if is_ab a b e then ab else e)).
  { destruct (is_ab a b e); [|exact Hn]. intros k n Hl. apply not_true_is_false. intros P.
    now destruct (pointer_below k n ab ab (lookup_in _ _ _ Hl) P (Z.le_refl _)). }
  intros k n Hl. apply not_true_is_false. intros P.
  destruct (merge_node k n Hl) as [[-> ->]|(Hk & n0 & E0 & ->)].
  - destruct (new_pointers P) as [Q|Q]; [rewrite (Old a na Ha) in Q | rewrite (Old b nb Hb) in Q]; discriminate.
  - destruct (redirect_pointers _ _ _ _ _ _ P) as [P0|(Ex & [Pa|Pb] & Ek & El & Ec)].
    + rewrite (Old k n0 E0) in P0. discriminate.
    + (* the new entry is ab only when e = a *)
      assert (e = a) by (unfold is_ab in Ex; destruct ((e =? a) || (e =? b)) eqn:Ee; lia). subst e.
      rewrite (Hn k n0 E0) in Pa. discriminate.
    + unfold is_ab in Ek. rewrite (Honly k n0 E0 El Ec ltac:(lia) ltac:(lia)) in Pb. discriminate.
Qed.

Lemma live_old x nx : lookup g' x = Some nx -> g_live nx = true -> x <> ab ->
  exists n0, lookup g x = Some n0 /\ nx = snd (redirect a b ab (x, n0)) /\ g_live n0 = true /\ is_ab a b x = false.
Proof.
  intros Hl Ll Hx. destruct (merge_node x nx Hl) as [[-> _]|(_ & n0 & E0 & ->)]; [contradiction|].
  rewrite redirect_live in Ll. apply andb_true_iff in Ll as [Ex%negb_true_iff L0]. eauto.
Qed.

Lemma keep_edges_ok : edges_ok g'.
Proof using Ha Hb La Lb Hab Pt Pf Hunused Hedges.
  intros k n x nx Hl Ll P Hx Lx.
  destruct (merge_node k n Hl) as [[-> ->]|(Hk & _)].
  - (* the new block: its pointers are those of a and b, its edges theirs *)
    apply new_pointers in P as Q. destruct (live_old x nx Hx Lx (pair_below x ab Q (Z.le_refl _))) as (nx0 & Hx0 & _ & Lx0 & Ex).
    apply has_edge_iff. split; [reflexivity|]. apply in_dests_of; [|exact Ex].
    destruct Q as [Q|Q]; [left; exact (Hedges a na x nx0 Ha La Q Hx0 Lx0) | right; exact (Hedges b nb x nx0 Hb Lb Q Hx0 Lx0)].
  - destruct (live_old k n Hl Ll Hk) as (n0 & E0 & -> & L0 & Ek).
    destruct (redirect_pointers _ _ _ _ _ _ P) as [P0|(-> & Old & _ & _ & Ec)].
    + (* a pointer the block had: x was in the graph, the edge is kept *)
      destruct (live_old x nx Hx Lx (pointer_below k n0 x ab (lookup_in _ _ _ E0) P0 (Z.le_refl _))) as (nx0 & Hx0 & _ & Lx0 & Ex).
      exact (redirect_edge_old a b ab k n0 x Ek (Hedges k n0 x nx0 E0 L0 P0 Hx0 Lx0) Ex).
    + (* the pointer was at a or b, both blocks of the graph: there was an edge, ab has been appended *)
      destruct Old as [O|O]; [apply (redirect_edge_new a b ab k n0 a Ek Ec (Hedges k n0 a na E0 L0 O Ha La)) |
                              apply (redirect_edge_new a b ab k n0 b Ek Ec (Hedges k n0 b nb E0 L0 O Hb Lb))]; unfold is_ab; lia.
Qed.
End Keep.

Definition Inv (g0 : graph) (e0 : Z) (s : dstate) : Prop :=
  edges_ok (d_g s) /\ unused_from (d_g s) (d_fresh s) /\ no_pred (d_g s) (d_entry s) /\ d_entry s < d_fresh s /\ same_walks g0 e0 (d_g s) (d_entry s).

Lemma do_merge_inv g0 e0 s a k s' : Inv g0 e0 s -> do_merge s a k = Some s' -> Inv g0 e0 s'.
Proof.
  intros (Je & Ju & Jn & Jl & Jw) H. unfold do_merge in H.
  destruct (apply_plan (d_g s) a (d_fresh s) k) as [g'|] eqn:Ea; [|destruct (plan (d_g s) a k) as [[[[? ?] ?] ?]|]; discriminate].
  destruct (apply_plan_some Ea) as (b & c & t & f & na & nb & Ep & Ha & Hb & ->). rewrite Ep in H. injection H as <-.
  destruct (plan_inv Ep Ha Hb) as (La & Lb & Hab & Pab & _ & Eo & Pt & Pf & _).
  pose proof (only_pred (d_g s) a b na nb Je Ha La Hb Lb Pab (entered_from_one_block_all Eo)) as Honly.
  assert (Eb : (d_entry s =? b) = false). { apply Z.eqb_neq. intros E. rewrite <- E, (Jn a na Ha) in Pab. discriminate. }
  unfold Inv. cbn [d_g d_fresh d_entry]. split; [|split; [|split; [|split]]].
  - apply keep_edges_ok; assumption.
  - apply keep_unused; assumption.
  - apply keep_no_pred; [assumption.. | lia].
  - destruct ((d_entry s =? a) || (d_entry s =? b)); lia.
  - apply (same_walks_trans g0 e0 (d_g s) (d_entry s)); [exact Jw|]. rewrite Eb, orb_false_r. intros env x.
    destruct (planned_merge_is_sound (d_g s) a (d_fresh s) k _ Je (Ju _ (Z.le_refl _)) Ea env (d_entry s) ltac:(lia)) as [F B].
    split; [intros n W; exact (F n x W) | intros [n W]; exact (B n x W)].
Qed.
Lemma add_done_inv g0 e0 s a : Inv g0 e0 s -> Inv g0 e0 (add_done s a).
Proof. intros H. exact H. Qed.
(* the two cases that process tries in turn at a block *)
Lemma merge_pair_inv g0 e0 s a {k1 k2} : Inv g0 e0 s ->
  Inv g0 e0 match do_merge s a k1 with
            | Some s' => add_done s' a
            | None => match do_merge s a k2 with Some s' => add_done s' a | None => add_done s a end
            end.
Proof.
  intros J. destruct (do_merge s a k1) as [s1|] eqn:E1; [exact (add_done_inv g0 e0 s1 a (do_merge_inv g0 e0 s a k1 s1 J E1))|].
  destruct (do_merge s a k2) as [s2|] eqn:E2; [exact (add_done_inv g0 e0 s2 a (do_merge_inv g0 e0 s a k2 s2 J E2)) | exact J].
Qed.
Lemma process_inv g0 e0 s a : Inv g0 e0 s -> Inv g0 e0 (process s a).
Proof.
  intros J. unfold process. destruct (mem a (d_done s)); [exact J|]. destruct (lookup (d_g s) a) as [na|]; [|exact J].
  cbv zeta. destruct ((a =? g_true na) || (a =? g_false na)); [exact J|].
  destruct (lookup (d_g s) (g_true na)) as [nb|];
    [destruct (entered_from_one_block (d_g s) (g_true na)); [destruct (points_to nb a); [exact J | exact (merge_pair_inv g0 e0 s a J)]|]|].
  (* what is left is, twice, the else branch *)
  all: destruct (lookup (d_g s) (g_false na)) as [ne|]; [|exact J].
  all: destruct (entered_from_one_block (d_g s) (g_false na)); [|exact J].
  all: destruct (points_to ne a); [exact J | exact (merge_pair_inv g0 e0 s a J)].
Qed.
Lemma fold_process_inv g0 e0 : forall l s, Inv g0 e0 s -> Inv g0 e0 (fold_left process l s).
Proof. induction l as [|a l IH]; intros s J; [exact J | cbn [fold_left]; apply IH, process_inv, J]. Qed.

(* the passes of short_circuit_struct, until nothing changes: the graph they leave has, from its entry, exactly the walks the
   original graph has from its entry - for EVERY graph in which pointers between graph nodes are edges, the identifiers from
   the counter on are unused and nothing points at the entry *)
Theorem struct_keeps_walks : forall fuel g m e, edges_ok g -> unused_from g m -> no_pred g e -> e < m ->
  same_walks g e (fst (struct fuel g m e)) (snd (struct fuel g m e)).
Proof.
  intros fuel g m e Je Ju Jn Jl.
  assert (Gen : forall n g1 m1 e1, Inv g e {| d_g := g1; d_fresh := m1; d_entry := e1; d_done := []; d_changed := false |} ->
                 same_walks g e (fst (struct n g1 m1 e1)) (snd (struct n g1 m1 e1))).
  { induction n as [|n IH]; intros g1 m1 e1 J; [exact (proj2 (proj2 (proj2 (proj2 J))))|].
    cbn [struct]. pose proof (fold_process_inv g e (post_order g1 e1) _ J : Inv g e (one_pass g1 m1 e1)) as J'.
    destruct (d_changed (one_pass g1 m1 e1)); [exact (IH _ _ _ J') | exact (proj2 (proj2 (proj2 (proj2 J'))))]. }
  apply Gen. exact (conj Je (conj Ju (conj Jn (conj Jl (same_walks_refl g e))))).
Qed.
Print Assumptions struct_keeps_walks.

Lemma mk_edges c t f ca x : points_to (mk c t f ca) x = true -> has_edge (mk c t f ca) x = true.
Proof.
  unfold points_to, has_edge, mk. cbn [g_true g_false g_live g_sucs andb]. destruct (t =? f) eqn:E; cbn [existsb]; lia.
Qed.
Lemma in_chain_graph spec k n : In (k, n) (chain_graph spec) ->
  exists t f c, n = mk (Leaf k false) t f c /\ In ((t, f), c) spec /\ 0 <= k < Z.of_nat (length spec).
Proof.
  unfold chain_graph. intros H. apply in_map_iff in H as ([i [[t f] c]] & E & I). injection E as <- <-. exists t, f, c. split; [reflexivity|].
  split; [exact (in_combine_r _ _ _ _ I)|]. apply in_combine_l in I. apply in_map_iff in I as (j & <- & J). apply in_seq in J. lia.
Qed.
Theorem chain_edges_ok spec : edges_ok (chain_graph spec).
Proof. intros k n x nx Hl _ P _ _. apply lookup_in, in_chain_graph in Hl as (t & f & c & -> & _). now apply mk_edges. Qed.

(* every chain whose targets are blocks of the chain other than block 0, or exits (negative): the hypotheses of the theorem hold *)
Definition chain_wf (spec : list ((Z * Z) * bool)) : Prop :=
  Forall (fun p => fst (fst p) < Z.of_nat (length spec) /\ snd (fst p) < Z.of_nat (length spec) /\ fst (fst p) <> 0 /\ snd (fst p) <> 0) spec.
Theorem chain_hypotheses spec : chain_wf spec ->
  edges_ok (chain_graph spec) /\ unused_from (chain_graph spec) (Z.of_nat (length spec)) /\ no_pred (chain_graph spec) 0.
Proof.
  intros W. unfold chain_wf in W. rewrite Forall_forall in W. split; [apply chain_edges_ok|]. split.
  - intros m' Hm. split.
    + destruct (lookup (chain_graph spec) m') as [n|] eqn:L; [|reflexivity]. apply lookup_in in L. apply in_chain_graph in L as (t & f & c & _ & _ & R). lia.
    + intros k n I. apply in_chain_graph in I as (t & f & c & -> & I & _). specialize (W _ I). cbn [fst snd] in W. cbn [mk g_true g_false]. lia.
  - intros k n L. apply lookup_in in L. apply in_chain_graph in L as (t & f & c & -> & I & _). specialize (W _ I). cbn [fst snd] in W.
    unfold points_to. cbn [mk g_true g_false]. lia.
Qed.
(* the passes on any such chain (of at least one block): every walk is kept *)
Theorem struct_keeps_chain_walks spec fuel : chain_wf spec -> spec <> [] ->
  same_walks (chain_graph spec) 0 (fst (struct fuel (chain_graph spec) (Z.of_nat (length spec)) 0)) (snd (struct fuel (chain_graph spec) (Z.of_nat (length spec)) 0)).
Proof.
  intros W NE. destruct (chain_hypotheses spec W) as (A & B & C). apply struct_keeps_walks; try assumption. destruct spec; [congruence|]. cbn [length]. lia.
Qed.
Print Assumptions struct_keeps_chain_walks.

(* a chain whose second block is marked as handler code but entered from the first block only: the passes merge all three
   blocks into block 4, and by the theorem every walk still ends where it did *)
Definition d41_spec : list ((Z * Z) * bool) := [((2, 1), false); ((-1, 2), true); ((-3, -1), false)].
Example d41_hypotheses : edges_ok (chain_graph d41_spec) /\ unused_from (chain_graph d41_spec) 3 /\ no_pred (chain_graph d41_spec) 0.
Proof. apply (chain_hypotheses d41_spec). repeat constructor; cbn; lia. Qed.
Example d41_merged :
  map (fun kn => (fst kn, g_live (snd kn))) (fst (struct 4 (chain_graph d41_spec) 3 0)) = [(0, false); (1, false); (2, false); (3, false); (4, true)]
  /\ snd (struct 4 (chain_graph d41_spec) 3 0) = 4.
Proof. split; vm_compute; reflexivity. Qed.
Example d41_walks_kept : same_walks (chain_graph d41_spec) 0 (fst (struct 4 (chain_graph d41_spec) 3 0)) (snd (struct 4 (chain_graph d41_spec) 3 0)).
Proof. destruct d41_hypotheses as (A & B & C). apply struct_keeps_walks; try assumption. lia. Qed.
