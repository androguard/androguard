(* C25 - the tree model of coq/Dad/ShortCircuitModel.v: Condition.neg complements the printed truth value, the negation performed
   at print time gives the declarative value, and each rewriting of the tree (the four merge cases, negate and swap) routes every
   assignment of the comparisons as before - by the truth table of the one or two conditions involved. *)
From Coq Require Import ZArith List Bool Lia.
Require Import V.Lib.Val V.Lib.Result V.Dad.ShortCircuitModel.
Import ListNotations.
Open Scope Z_scope.

Lemma neg_involutive c : neg (neg c) = c.
Proof. induction c as [i n|c1 IH1 c2 IH2 a n]; cbn [neg]; [now rewrite negb_involutive | now rewrite IH1, IH2, negb_involutive]. Qed.
Lemma size_neg c : size (neg c) = size c.
Proof. induction c as [i n|c1 IH1 c2 IH2 a n]; cbn [neg size]; [reflexivity | now rewrite IH1, IH2]. Qed.

(* De Morgan through any nesting and any pending negations *)
Theorem eval_neg env c : eval env (neg c) = negb (eval env c).
Proof.
  induction c as [i n|c1 IH1 c2 IH2 a n]; cbn [neg eval].
  - now destruct n, (env i).
  - rewrite IH1, IH2. now destruct a, n, (eval env c1), (eval env c2).
Qed.

(* "negate the first operand in place, then print both" has the declarative truth value *)
Theorem eval_lit_eval env : forall fuel c, (size c <= fuel)%nat -> eval_lit fuel env c = eval env c.
Proof.
  induction fuel as [|f IH]; intros c H; [destruct c; cbn [size] in H; lia|].
  destruct c as [i n|c1 c2 a n]; cbn [eval_lit eval]; [reflexivity|]. cbn [size] in H.
  rewrite (IH c2) by lia. destruct n.
  - rewrite IH by (rewrite size_neg; lia). now rewrite eval_neg.
  - now rewrite IH by lia.
Qed.

Lemma cond_eqb_eq : forall a b, cond_eqb a b = true -> a = b.
Proof.
  induction a as [i n|a1 IH1 a2 IH2 x y]; intros [j m|b1 b2 x' y'] H; cbn [cond_eqb] in H; try discriminate; rewrite !andb_true_iff in H.
  - destruct H as [H1%Z.eqb_eq H2%eqb_prop]. now subst.
  - destruct H as [[[H1%IH1 H2%IH2] H3%eqb_prop] H4%eqb_prop]. now subst.
Qed.
Lemma cfg_eqb_eq : forall a b, cfg_eqb a b = true -> a = b.
Proof.
  induction a as [x|c t IHt f IHf]; intros [y|c' t' f'] H; cbn [cfg_eqb] in H; try discriminate.
  - apply Z.eqb_eq in H. now subst.
  - rewrite !andb_true_iff in H. destruct H as [[H1%cond_eqb_eq H2%IHt] H3%IHf]. now subst.
Qed.

(* the merge cases: whatever the operands and the successors are, every assignment is routed as before *)
Theorem merge_step_route env g g' : merge_step g = Some g' -> route env g' = route env g.
Proof.
  destruct g as [l|c thn els]; [discriminate|]. destruct thn as [l|ct t1 f1]; [discriminate|]. cbn [merge_step].
  destruct (cfg_eqb f1 els) eqn:E; [|clear E; destruct (cfg_eqb t1 els) eqn:E; [|discriminate]].
  all: intros [= <-]; apply cfg_eqb_eq in E; subst els; cbn [route eval]; now destruct (eval env c), (eval env ct).
Qed.
Theorem merge_step_else_route env g g' : merge_step_else g = Some g' -> route env g' = route env g.
Proof.
  destruct g as [l|c thn els]; [discriminate|]. destruct els as [l|ce t2 f2]; [discriminate|]. cbn [merge_step_else].
  destruct (cfg_eqb f2 thn) eqn:E; [|clear E; destruct (cfg_eqb t2 thn) eqn:E; [|discriminate]].
  all: intros [= <-]; apply cfg_eqb_eq in E; subst thn; cbn [route eval]; now destruct (eval env c), (eval env ce).
Qed.
(* a merge below a node does not change what the node does *)
Theorem route_congruence env c t t' f f' : route env t' = route env t -> route env f' = route env f ->
  route env (Node c t' f') = route env (Node c t f).
Proof. intros H1 H2. cbn [route]. now rewrite H1, H2. Qed.

(* Writer.visit_cond_node: negate and swap the successors *)
Theorem neg_swap_route env g : route env (neg_swap g) = route env g.
Proof. destruct g as [l|c t f]; [reflexivity|]. cbn [neg_swap route]. rewrite eval_neg. now destruct (eval env c). Qed.
Theorem neg_all_route env g : route env (neg_all g) = route env g.
Proof.
  induction g as [l|c t IHt f IHf]; [reflexivity|]. cbn [neg_all route]. rewrite eval_neg, IHt, IHf. now destruct (eval env c).
Qed.
