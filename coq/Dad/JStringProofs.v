(* C23 - proofs: a prefix-run lemma for each lexer phase; one token through both phases (below 256 a
   table decided by evaluation, above it the escapes \uXXXX read back by digit arithmetic, with the
   surrogate arithmetic for supplementary characters); induction over the string. *)
From Coq Require Import ZArith List Bool Lia.
Require Import V.Lib.Val V.Lib.ListFacts V.Lib.Sweep V.Lib.Bits V.Dad.JavaLex V.Dad.JStringModel.
Import ListNotations.
Open Scope Z_scope.

Definition cp (c : Z) : Prop := 0 <= c < 1114112.
Definition bmp (c : Z) : Prop := 0 <= c < 65536.

Lemma omap_app {A} (a b : list A) o : option_map (app a) (option_map (app b) o) = option_map (app (a ++ b)) o.
Proof. destruct o; cbn [option_map]; now rewrite ?app_assoc. Qed.

Fixpoint ue_pre (st : ust) (l : list Z) : option (list Z * ust) :=
  match l with
  | [] => Some ([], st)
  | c :: r => match ustep st c with
              | Some (o, st') => match ue_pre st' r with Some (t, s) => Some (o ++ t, s) | None => None end
              | None => None
              end
  end.
Lemma ue_pre_step {st c} o st' {r} : ustep st c = Some (o, st') ->
  ue_pre st (c :: r) = match ue_pre st' r with Some (t, s) => Some (o ++ t, s) | None => None end.
Proof. intros H. cbn [ue_pre]. now rewrite H. Qed.
Lemma ue_pre_app : forall l st out st' k, ue_pre st l = Some (out, st') ->
  ue st (l ++ k) = option_map (app out) (ue st' k).
Proof.
  induction l as [|c r IH]; intros st out st' k H; simpl in *.
  - inversion H; subst. destruct (ue st' k); reflexivity.
  - destruct (ustep st c) as [[o s1]|]; [|discriminate].
    destruct (ue_pre s1 r) as [[t s2]|] eqn:E; [|discriminate]. inversion H; subst.
    rewrite (IH _ _ _ k E). apply omap_app.
Qed.
Lemma ue_pre_cat : forall l1 l2 st o1 s1 o2 s2, ue_pre st l1 = Some (o1, s1) -> ue_pre s1 l2 = Some (o2, s2) ->
  ue_pre st (l1 ++ l2) = Some (o1 ++ o2, s2).
Proof.
  induction l1 as [|c r IH]; intros l2 st o1 s1 o2 s2 H1 H2; simpl in *.
  - inversion H1; subst. exact H2.
  - destruct (ustep st c) as [[o s']|]; [|discriminate].
    destruct (ue_pre s' r) as [[t s'']|] eqn:E; [|discriminate]. inversion H1; subst.
    rewrite (IH _ _ _ _ _ _ E H2). rewrite app_assoc. reflexivity.
Qed.
Arguments ue_pre_cat {l1 l2 st o1 s1 o2 s2}.
Fixpoint lit_pre (st : lst) (l : list Z) : option (list Z * lst) :=
  match l with
  | [] => Some ([], st)
  | c :: r => match lstep st c with
              | Some (o, st') => match lit_pre st' r with Some (t, s) => Some (o ++ t, s) | None => None end
              | None => None
              end
  end.
Lemma lit_pre_app : forall l st out st' k, lit_pre st l = Some (out, st') ->
  lit st (l ++ k) = option_map (app out) (lit st' k).
Proof.
  induction l as [|c r IH]; intros st out st' k H; simpl in *.
  - inversion H; subst. destruct (lit st' k); reflexivity.
  - destruct (lstep st c) as [[o s1]|]; [|discriminate].
    destruct (lit_pre s1 r) as [[t s2]|] eqn:E; [|discriminate]. inversion H; subst.
    rewrite (IH _ _ _ k E). apply omap_app.
Qed.

Definition tok1 (c : Z) : list Z :=
  if (32 <=? c) && (c <? 127) then if (c =? 39) || (c =? 34) || (c =? 92) then [92; c] else [c]
  else if c =? 13 then [92; 114] else if c =? 10 then [92; 110] else if c =? 9 then [92; 116]
  else units c.

Definition ascii_printable (c : Z) : bool := (32 <=? c) && (c <? 127).
Definition pre1_is (l out : list Z) : bool :=
  match ue_pre (UNorm true) l with Some (o, UNorm true) => list_eqb Z.eqb o out | _ => false end.
Definition pre2_is (l out : list Z) : bool :=
  match lit_pre LBody l with Some (o, LBody) => list_eqb Z.eqb o out | _ => false end.

(* Below 256 a token is one row of a table: both phases and the character class are decided by evaluation. *)
Definition latin1_ok (c : Z) : bool :=
  pre1_is (tok c) (tok1 c) && pre2_is (tok1 c) (utf16 c) && forallb ascii_printable (tok c).
Lemma latin1_all : all8 latin1_ok = true.
Proof. vm_compute. reflexivity. Qed.
Lemma tok_latin1 c : 0 <= c < 256 ->
  ue_pre (UNorm true) (tok c) = Some (tok1 c, UNorm true) /\ lit_pre LBody (tok1 c) = Some (utf16 c, LBody) /\
  forallb ascii_printable (tok c) = true.
Proof.
  intros H. pose proof (all8_spec _ latin1_all c H) as A. unfold latin1_ok, pre1_is, pre2_is in A.
  apply andb_true_iff in A as [A A3]. apply andb_true_iff in A as [A1 A2].
  destruct (ue_pre (UNorm true) (tok c)) as [[o [[|]| | |]]|]; try discriminate.
  destruct (lit_pre LBody (tok1 c)) as [[o' []]|]; try discriminate.
  apply list_eqb_Z_eq in A1, A2. subst. auto.
Qed.

Lemma tok_escaped c : 127 <= c -> tok c = flat_map uesc (units c) /\ tok1 c = units c.
Proof.
  intros H. unfold tok, tok1. replace (c <? 127) with false by lia. rewrite !(proj2 (Z.eqb_neq c _)) by lia.
  cbn [orb]. now rewrite !andb_false_r.
Qed.

Lemma hexd_ascii n : 0 <= n < 16 -> ascii_printable (hexd n) = true.
Proof. intros H. unfold ascii_printable, hexd. destruct (Z.ltb_spec n 10); lia. Qed.
Lemma hexval_hexd n : 0 <= n < 16 -> hexval (hexd n) = Some n /\ (hexd n =? 117) = false.
Proof.
  intros H. unfold hexval, hexd. destruct (Z.ltb_spec n 10).
  - replace ((48 <=? 48 + n) && (48 + n <=? 57)) with true by lia. split; [f_equal|]; lia.
  - replace ((48 <=? 87 + n) && (87 + n <=? 57)) with false by lia.
    replace ((97 <=? 87 + n) && (87 + n <=? 102)) with true by lia. split; [f_equal|]; lia.
Qed.
Lemma uesc_digits u : bmp u -> exists a b c d,
  uesc u = [92; 117; hexd a; hexd b; hexd c; hexd d] /\ u = ((a * 16 + b) * 16 + c) * 16 + d /\
  0 <= a < 16 /\ 0 <= b < 16 /\ 0 <= c < 16 /\ 0 <= d < 16.
Proof.
  unfold bmp, uesc. intros H. rewrite !land15. shrc 12 4096. shrc 8 256. shrc 4 16.
  eexists _, _, _, _. split; [reflexivity|]. lia.
Qed.
Lemma uesc_pre u : bmp u -> ue_pre (UNorm true) (uesc u) = Some ([u], UNorm true).
Proof.
  intros H. destruct (uesc_digits u H) as (a & b & c & d & -> & -> & Ha & Hb & Hc & Hd).
  destruct (hexval_hexd a Ha) as [Va Na], (hexval_hexd b Hb) as [Vb _], (hexval_hexd c Hc) as [Vc _], (hexval_hexd d Hd) as [Vd _].
  rewrite (ue_pre_step [] UEsc), (ue_pre_step [] UU) by reflexivity.
  rewrite (ue_pre_step [] (UHex 3 a)) by (cbn [ustep]; now rewrite Na, Va).
  rewrite (ue_pre_step [] (UHex 2 (a * 16 + b))) by (cbn [ustep]; now rewrite Vb).
  rewrite (ue_pre_step [] (UHex 1 ((a * 16 + b) * 16 + c))) by (cbn [ustep]; now rewrite Vc).
  rewrite (ue_pre_step [((a * 16 + b) * 16 + c) * 16 + d] (UNorm true)) by (cbn [ustep]; now rewrite Vd).
  reflexivity.
Qed.
Lemma uesc_ascii u : bmp u -> forallb ascii_printable (uesc u) = true.
Proof.
  intros H. destruct (uesc_digits u H) as (a & b & c & d & -> & _ & Ha & Hb & Hc & Hd).
  cbn [forallb]. rewrite !hexd_ascii by assumption. reflexivity.
Qed.

Lemma units_supp c : 65536 <= c < 1114112 -> units c = utf16 c.
Proof.
  intros H. unfold units, utf16.
  destruct (Z.ltb_spec 65535 c) as [_|]; [|lia]. destruct (Z.ltb_spec c 65536) as [|_]; [lia|].
  change 1023 with (Z.ones 10). rewrite Z.land_ones by lia. shrc 10 1024.
  change 55296 with (54 * 2 ^ 10). change 56320 with (55 * 2 ^ 10).
  rewrite (Z.lor_comm (54 * 2 ^ 10)), (Z.lor_comm (55 * 2 ^ 10)).
  rewrite !lor_mul_add by (change (2 ^ 10) with 1024; lia).
  change (2 ^ 10) with 1024. f_equal; [lia | f_equal; lia].
Qed.
Lemma surrogates c : 65536 <= c < 1114112 ->
  exists hi lo, utf16 c = [hi; lo] /\ 55296 <= hi < 56320 /\ 56320 <= lo < 57344.
Proof.
  intros H. unfold utf16. destruct (Z.ltb_spec c 65536); [lia|].
  eexists _, _. split; [reflexivity|]. lia.
Qed.
Lemma units_shape c : cp c -> units c = utf16 c /\ Forall bmp (units c) /\ (128 <= c -> Forall (fun u => 128 <= u) (units c)).
Proof.
  unfold cp. intros H. destruct (Z.ltb_spec c 65536) as [Hb|Hs].
  - unfold units, utf16. destruct (Z.ltb_spec 65535 c); [lia|]. destruct (Z.ltb_spec c 65536); [|lia].
    unfold bmp. repeat split; repeat constructor; lia.
  - assert (R : 65536 <= c < 1114112) by lia. rewrite (units_supp c R). destruct (surrogates c R) as (hi & lo & -> & Hh & Hl).
    unfold bmp. repeat split; repeat constructor; lia.
Qed.

Lemma escapes_pre l : Forall bmp l -> ue_pre (UNorm true) (flat_map uesc l) = Some (l, UNorm true).
Proof.
  induction 1 as [|u l Hu _ IH]; [reflexivity|]. exact (ue_pre_cat (uesc_pre u Hu) IH).
Qed.
Lemma escapes_ascii l : Forall bmp l -> forallb ascii_printable (flat_map uesc l) = true.
Proof. induction 1 as [|u l Hu _ IH]; [reflexivity|]. cbn [flat_map]. now rewrite forallb_app, uesc_ascii, IH. Qed.
Lemma lbody_plain u : 128 <= u -> lbody u = Some ([u], LBody).
Proof.
  intros H. unfold lbody. now rewrite !(proj2 (Z.eqb_neq u _)) by lia.
Qed.
Lemma plain_pre l : Forall (fun u => 128 <= u) l -> lit_pre LBody l = Some (l, LBody).
Proof. induction 1 as [|u l Hu _ IH]; [reflexivity|]. cbn [lit_pre lstep]. now rewrite lbody_plain, IH. Qed.

Lemma tok_facts c : cp c ->
  ue_pre (UNorm true) (tok c) = Some (tok1 c, UNorm true) /\ lit_pre LBody (tok1 c) = Some (utf16 c, LBody) /\
  forallb ascii_printable (tok c) = true.
Proof.
  intros Hc. destruct (Z.ltb_spec c 256) as [Hb|Hs]; [apply tok_latin1; unfold cp in Hc; lia|].
  destruct (tok_escaped c) as [-> ->]; [lia|]. destruct (units_shape c Hc) as (E & B & P). rewrite <- E.
  split; [apply escapes_pre, B|]. split; [apply plain_pre, P; lia | apply escapes_ascii, B].
Qed.
Lemma tok_phase1 c k : cp c ->
  ue (UNorm true) (tok c ++ k) = option_map (app (tok1 c)) (ue (UNorm true) k).
Proof. intros Hc. apply ue_pre_app, tok_facts, Hc. Qed.
Lemma tok_phase2 c k : cp c -> lit LBody (tok1 c ++ k) = option_map (app (utf16 c)) (lit LBody k).
Proof. intros Hc. apply lit_pre_app, tok_facts, Hc. Qed.

Lemma phase1_body s k : Forall cp s ->
  ue (UNorm true) (flat_map tok s ++ k) = option_map (app (flat_map tok1 s)) (ue (UNorm true) k).
Proof.
  induction 1 as [|c s Hc Hs IH]; simpl.
  - destruct (ue (UNorm true) k); reflexivity.
  - rewrite <- app_assoc, tok_phase1 by assumption. rewrite IH. apply omap_app.
Qed.
Lemma phase2_body s k : Forall cp s ->
  lit LBody (flat_map tok1 s ++ k) = option_map (app (to_utf16 s)) (lit LBody k).
Proof.
  induction 1 as [|c s Hc Hs IH]; simpl.
  - destruct (lit LBody k); reflexivity.
  - rewrite <- app_assoc, tok_phase2 by assumption. rewrite IH. apply omap_app.
Qed.
Theorem jstring_denotes : forall s, Forall cp s -> java_lex (jstring s) = Some (to_utf16 s).
Proof.
  intros s Hs. unfold java_lex, jstring.
  change (34 :: flat_map tok s ++ [34]) with ([34] ++ (flat_map tok s ++ [34])).
  cbn [app ue ustep]. change (34 =? 92) with false. cbv iota.
  rewrite phase1_body by assumption. cbn. rewrite phase2_body by assumption. cbn.
  rewrite app_nil_r. reflexivity.
Qed.

(* the literal is pure printable ASCII, so the source file's encoding cannot alter it *)
Theorem jstring_ascii : forall s, Forall cp s -> forallb ascii_printable (jstring s) = true.
Proof.
  intros s Hs. unfold jstring. cbn [forallb]. rewrite forallb_app. cbn.
  rewrite andb_true_r. induction Hs as [|c s Hc Hs IH]; [reflexivity|].
  cbn [flat_map]. rewrite forallb_app, IH. now destruct (tok_facts c Hc) as (_ & _ & ->).
Qed.

Lemma supp_units : forall c, 65536 <= c < 1114112 ->
  exists hi lo, to_utf16 [c] = [hi; lo] /\ 55296 <= hi < 56320 /\ 56320 <= lo < 57344 /\
                c = 65536 + (hi - 55296) * 1024 + (lo - 56320).
Proof.
  intros c H. unfold to_utf16. cbn [flat_map]. rewrite app_nil_r. unfold utf16.
  destruct (Z.ltb_spec c 65536); [lia|]. eexists _, _. split; [reflexivity|]. lia.
Qed.
