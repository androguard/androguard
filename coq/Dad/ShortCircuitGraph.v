(* C25 - short_circuit_struct on graphs: conditional blocks with their true / false successors, the blocks of exception
   handlers marked (Graph.preds leaves them out), and one merge step as the code performs it - a new block for the two merged
   ones, the visible predecessors re-pointed at it (update_attribute_with), the merged blocks removed from the graph but left
   as they were for whoever still points at them.
   The theorem: under the precondition the (repaired) code tests - the absorbed block is entered from the absorbing one only,
   hidden predecessors included - every walk reaches the same exit before and after the merge; and so for every pass of the
   driver, whatever it merges. *)
From Coq Require Import ZArith List Bool Lia.
Require Import V.Lib.Val V.Lib.Result V.Lib.ListFacts V.Dad.ShortCircuitModel.
Import ListNotations.
Open Scope Z_scope.

(* a block: its condition, where its true and false branches lead (attributes of the block object), whether it lies in an
   exception handler, whether it is still a node of the graph, and its successor edges in the order the graph holds them *)
Record gnode := { g_cond : cond; g_true : Z; g_false : Z; g_catch : bool; g_live : bool; g_sucs : list Z }.
Definition graph := list (Z * gnode).
Fixpoint lookup (g : graph) (i : Z) : option gnode :=
  match g with [] => None | (k, n) :: r => if k =? i then Some n else lookup r i end.
Definition next (env : Z -> bool) (n : gnode) : Z := if eval env (g_cond n) then g_true n else g_false n.
(* follow the branches from block i; an identifier that is no block is an exit *)
Fixpoint walk (fuel : nat) (g : graph) (env : Z -> bool) (i : Z) : option Z :=
  match fuel with
  | O => None
  | S f => match lookup g i with None => Some i | Some n => walk f g env (next env n) end
  end.

Definition points_to (n : gnode) (b : Z) : bool := (g_true n =? b) || (g_false n =? b).
Definition has_edge (n : gnode) (b : Z) : bool := g_live n && existsb (Z.eqb b) (g_sucs n).
(* Graph.all_preds-like / Graph.preds: the nodes of the graph with an edge to b; preds() leaves out those in a handler *)
Definition all_preds (g : graph) (b : Z) : list Z := map fst (filter (fun kn => has_edge (snd kn) b) g).
Definition vis_preds (g : graph) (b : Z) : list Z := map fst (filter (fun kn => has_edge (snd kn) b && negb (g_catch (snd kn))) g).
(* the precondition of a merge in short_circuit_struct (after the repair db98cb62) *)
Definition entered_from_one_block (g : graph) (b : Z) : bool :=
  (length (vis_preds g b) =? 1)%nat && (length (all_preds g b) =? 1)%nat.
(* before the repair: the visible predecessors only *)
Definition entered_from_one_visible_block (g : graph) (b : Z) : bool := (length (vis_preds g b) =? 1)%nat.

(* MergeNodes *)
Definition is_ab (a b x : Z) : bool := (x =? a) || (x =? b).
Definition sub (a b ab x : Z) : Z := if is_ab a b x then ab else x.
(* remove_node(a), remove_node(b): the edges to them go; add_edge(p, ab) for the visible predecessors: appended *)
Definition sucs_after (a b ab : Z) (visible : bool) (l : list Z) : list Z :=
  let rest := filter (fun x => negb (is_ab a b x)) l in
  if visible && existsb (is_ab a b) l then rest ++ [ab] else rest.
Definition redirect (a b ab : Z) (kn : Z * gnode) : Z * gnode :=
  let '(k, n) := kn in
  if is_ab a b k then (k, {| g_cond := g_cond n; g_true := g_true n; g_false := g_false n; g_catch := g_catch n; g_live := false; g_sucs := g_sucs n |})
  else if g_live n && negb (g_catch n) then
    (k, {| g_cond := g_cond n; g_true := sub a b ab (g_true n); g_false := sub a b ab (g_false n); g_catch := g_catch n; g_live := true;
           g_sucs := sucs_after a b ab true (g_sucs n) |})
  else (k, {| g_cond := g_cond n; g_true := g_true n; g_false := g_false n; g_catch := g_catch n; g_live := g_live n;
              g_sucs := sucs_after a b ab false (g_sucs n) |}).
Definition merge (g : graph) (a b ab : Z) (c : cond) (t f : Z) (catch : bool) (dests : list Z) : graph :=
  map (redirect a b ab) g ++ [(ab, {| g_cond := c; g_true := t; g_false := f; g_catch := catch; g_live := true; g_sucs := dests |})].
Definition fresh (g : graph) (ab : Z) : Prop := lookup g ab = None /\ forall k n, In (k, n) g -> g_true n <> ab /\ g_false n <> ab.
(* in the graph a pointer of a node to another node of the graph is an edge *)
Definition edges_ok (g : graph) : Prop :=
  forall k n x nx, lookup g k = Some n -> g_live n = true -> points_to n x = true -> lookup g x = Some nx -> g_live nx = true -> has_edge n x = true.

Lemma walk_more : forall n m g env i x, walk n g env i = Some x -> (n <= m)%nat -> walk m g env i = Some x.
Proof.
  induction n as [|n IH]; intros m g env i x H Hm; [discriminate|]. destruct m as [|m]; [lia|]. cbn [walk] in *.
  destruct (lookup g i); [apply (IH m); [exact H | lia] | exact H].
Qed.
Lemma lookup_in g i n : lookup g i = Some n -> In (i, n) g.
Proof.
  induction g as [|[k m] r IH]; cbn [lookup]; [discriminate|].
  destruct (Z.eqb_spec k i) as [->|_]; [intros [= <-]; now left | intros H; right; auto].
Qed.
Lemma lookup_app g h i : lookup (g ++ h) i = match lookup g i with Some n => Some n | None => lookup h i end.
Proof. induction g as [|[k m] r IH]; cbn [lookup app]; [reflexivity|]. now destruct (k =? i). Qed.
Lemma points_to_iff n x : points_to n x = true <-> g_true n = x \/ g_false n = x.
Proof. unfold points_to. now rewrite orb_true_iff, !Z.eqb_eq. Qed.
Lemma points_to_true n : points_to n (g_true n) = true.
Proof. apply points_to_iff. now left. Qed.
Lemma points_to_false n : points_to n (g_false n) = true.
Proof. apply points_to_iff. now right. Qed.
Lemma has_edge_iff n x : has_edge n x = true <-> g_live n = true /\ In x (g_sucs n).
Proof. unfold has_edge. now rewrite andb_true_iff, existsb_eqb_In. Qed.

Lemma sub_cases a b ab x : sub a b ab x = x \/ (sub a b ab x = ab /\ (x = a \/ x = b)).
Proof. unfold sub, is_ab. destruct (Z.eqb_spec x a), (Z.eqb_spec x b); auto. Qed.
Lemma redirect_key a b ab k m : redirect a b ab (k, m) = (k, snd (redirect a b ab (k, m))).
Proof. unfold redirect. destruct (is_ab a b k); [reflexivity|]. destruct (g_live m && negb (g_catch m)); reflexivity. Qed.
Lemma redirect_live a b ab k m : g_live (snd (redirect a b ab (k, m))) = negb (is_ab a b k) && g_live m.
Proof. unfold redirect. destruct (is_ab a b k); [reflexivity|]. now destruct (g_live m), (g_catch m). Qed.
Lemma redirect_pointers a b ab k n x : points_to (snd (redirect a b ab (k, n))) x = true ->
  points_to n x = true \/ (x = ab /\ (points_to n a = true \/ points_to n b = true) /\ is_ab a b k = false /\ g_live n = true /\ g_catch n = false).
Proof.
  unfold redirect. destruct (is_ab a b k); [now left|]. destruct (g_live n), (g_catch n); try (now left).
  cbn [snd andb negb]. rewrite !points_to_iff. cbn [g_true g_false].
  intros [<-|<-]; [destruct (sub_cases a b ab (g_true n)) as [->|[-> E]] | destruct (sub_cases a b ab (g_false n)) as [->|[-> E]]]; tauto.
Qed.
Lemma in_sucs_after_old a b ab v l x : In x l -> is_ab a b x = false -> In x (sucs_after a b ab v l).
Proof.
  intros H E. assert (F : In x (filter (fun y => negb (is_ab a b y)) l)) by (apply filter_In; now rewrite E).
  unfold sucs_after. destruct (v && existsb (is_ab a b) l); [apply in_or_app; now left | exact F].
Qed.
Lemma in_sucs_after_new a b ab l y : In y l -> is_ab a b y = true -> In ab (sucs_after a b ab true l).
Proof.
  intros H E. unfold sucs_after. cbn [andb]. replace (existsb (is_ab a b) l) with true by (symmetry; apply existsb_exists; eauto).
  apply in_or_app. right. now left.
Qed.
Lemma redirect_edge_old a b ab k n x : is_ab a b k = false -> has_edge n x = true -> is_ab a b x = false ->
  has_edge (snd (redirect a b ab (k, n))) x = true.
Proof.
  intros Ek [L I]%has_edge_iff Ex. apply has_edge_iff. unfold redirect. rewrite Ek, L.
  destruct (g_catch n); (split; [reflexivity | now apply in_sucs_after_old]).
Qed.
Lemma redirect_edge_new a b ab k n y : is_ab a b k = false -> g_catch n = false -> has_edge n y = true -> is_ab a b y = true ->
  has_edge (snd (redirect a b ab (k, n))) ab = true.
Proof.
  intros Ek Ec [L I]%has_edge_iff Ey. apply has_edge_iff. unfold redirect. rewrite Ek, L, Ec.
  split; [reflexivity | exact (in_sucs_after_new a b ab _ y I Ey)].
Qed.

Lemma lookup_map_redirect a b ab g i : lookup (map (redirect a b ab) g) i = option_map (fun n => snd (redirect a b ab (i, n))) (lookup g i).
Proof.
  induction g as [|[k m] r IH]; cbn [lookup map]; [reflexivity|]. rewrite redirect_key. cbn [lookup].
  destruct (Z.eqb_spec k i) as [->|_]; [reflexivity | exact IH].
Qed.
Lemma lookup_merge g a b ab c t f catch dests i : lookup g ab = None ->
  lookup (merge g a b ab c t f catch dests) i =
  if i =? ab then Some {| g_cond := c; g_true := t; g_false := f; g_catch := catch; g_live := true; g_sucs := dests |}
  else option_map (fun n => snd (redirect a b ab (i, n))) (lookup g i).
Proof.
  intros F. unfold merge. rewrite lookup_app, lookup_map_redirect. cbn [lookup]. rewrite (Z.eqb_sym ab i).
  destruct (Z.eqb_spec i ab) as [->|_]; [now rewrite F | now destruct (lookup g i)].
Qed.

Section Merge.
Variables (g : graph) (a b ab : Z) (na nb : gnode) (c : cond) (t f : Z) (catch : bool) (dests : list Z).
Hypothesis Ha : lookup g a = Some na.
Hypothesis Hb : lookup g b = Some nb.
Hypothesis Hab : a <> b.
Hypothesis Hfresh : fresh g ab.
(* of the blocks whose pointers are re-pointed (in the graph, not in a handler, not the merged ones) none points at b: the
   absorbed block is entered from a only *)
Hypothesis Honly : forall k n, lookup g k = Some n -> g_live n = true -> g_catch n = false -> k <> a -> k <> b -> points_to n b = false.
(* the merged condition with its two successors does what a followed by b did *)
Hypothesis Hc : forall env, (if eval env c then t else f) = (let x := next env na in if x =? b then next env nb else x).
Let g' := merge g a b ab c t f catch dests.

Lemma next_not_ab env k n : lookup g k = Some n -> next env n <> ab.
Proof. intros H. destruct Hfresh as [_ F]. destruct (F k n (lookup_in _ _ _ H)) as [F1 F2]. unfold next. destruct (eval env (g_cond n)); assumption. Qed.
Lemma next_old env k n : lookup g k = Some n ->
  next env (snd (redirect a b ab (k, n))) = next env n \/ (next env n = a /\ next env (snd (redirect a b ab (k, n))) = ab).
Proof using Hab Honly.
  intros H. unfold redirect. destruct (is_ab a b k) eqn:Ek; [left; reflexivity|].
  destruct (g_live n && negb (g_catch n)) eqn:E; [|left; reflexivity]. cbn [snd]. unfold next. cbn [g_cond g_true g_false].
  apply andb_true_iff in E as [El Ec%negb_true_iff]. unfold is_ab in Ek.
  pose proof (Honly k n H El Ec ltac:(lia) ltac:(lia)) as P%not_true_iff_false. rewrite points_to_iff in P.
  destruct (eval env (g_cond n)); [destruct (sub_cases a b ab (g_true n)) as [|[? [|]]] | destruct (sub_cases a b ab (g_false n)) as [|[? [|]]]]; tauto.
Qed.

Definition image (s s' : Z) : Prop := s' = s \/ (s = a /\ s' = ab).
Lemma image_of s : image s (if s =? a then ab else s).
Proof. unfold image. destruct (Z.eqb_spec s a); auto. Qed.
(* a step from s' in the merged graph answers a step from s in the original one - or two, where ab does what a and then b did *)
Lemma sim_step env s s' : s <> ab -> image s s' ->
  match lookup g s with
  | None => s' = s /\ lookup g' s' = None
  | Some p => exists p', lookup g' s' = Some p' /\
                (image (next env p) (next env p') \/ (next env p = b /\ image (next env nb) (next env p')))
  end.
Proof using Ha Hb Hab Hfresh Honly Hc.
  unfold g'. intros Hs [->|[-> ->]]; rewrite lookup_merge by apply Hfresh.
  - rewrite (proj2 (Z.eqb_neq s ab) Hs). destruct (lookup g s) as [p|] eqn:E; [|split; reflexivity].
    eexists. split; [reflexivity|]. left. exact (next_old env s p E).
  - rewrite Ha, Z.eqb_refl. eexists. split; [reflexivity|]. unfold next at 2 5. cbn [g_cond g_true g_false]. rewrite Hc. cbv zeta.
    destruct (Z.eqb_spec (next env na) b) as [E|_]; [right; split; [exact E|] | left]; now left.
Qed.

Lemma forward_all env : forall n s s' x, s <> ab -> image s s' -> walk n g env s = Some x -> walk n g' env s' = Some x.
Proof.
  induction n as [|n IH]; intros s s' x Hs I W; [discriminate|]. cbn [walk] in *.
  pose proof (sim_step env s s' Hs I) as St. destruct (lookup g s) as [p|] eqn:E; [|destruct St as [-> ->]; exact W].
  destruct St as (p' & -> & [I'|[Eb I']]); [exact (IH _ _ x (next_not_ab env s p E) I' W)|].
  apply (IH _ _ x (next_not_ab env b nb Hb) I'). rewrite Eb in W.
  (* the walk from b, one step on, still ends within n steps *)
  destruct n as [|n1]; [discriminate|]. cbn [walk] in W. rewrite Hb in W. exact (walk_more n1 _ _ _ _ _ W (Nat.le_succ_diag_r n1)).
Qed.
(* every walk of the graph before the merge, from any block or from the merged pair, ends at the same exit after it *)
Theorem merge_keeps_walks env n s x : s <> ab -> walk n g env s = Some x -> walk n g' env (if s =? a then ab else s) = Some x.
Proof using Ha Hb Hab Hfresh Honly Hc. intros Hs. exact (forward_all env n s _ x Hs (image_of s)). Qed.

Lemma backward_all env : forall n s s' x, s <> ab -> image s s' -> walk n g' env s' = Some x -> exists m, walk m g env s = Some x.
Proof.
  induction n as [|n IH]; intros s s' x Hs I W; [discriminate|]. cbn [walk] in W.
  pose proof (sim_step env s s' Hs I) as St. destruct (lookup g s) as [p|] eqn:E.
  - destruct St as (p' & Ep' & [I'|[Eb I']]); rewrite Ep' in W.
    + destruct (IH _ _ x (next_not_ab env s p E) I' W) as [m Hm]. exists (S m). cbn [walk]. now rewrite E.
    + destruct (IH _ _ x (next_not_ab env b nb Hb) I' W) as [m Hm]. exists (S (S m)). cbn [walk]. now rewrite E, Eb, Hb.
  - destruct St as [-> E']. rewrite E' in W. exists 1%nat. cbn [walk]. now rewrite E.
Qed.
(* and conversely: every walk of the merged graph is a walk of the original one *)
Theorem merge_adds_no_walks env n s x : s <> ab -> walk n g' env (if s =? a then ab else s) = Some x -> exists m, walk m g env s = Some x.
Proof using Ha Hb Hab Hfresh Honly Hc. intros Hs. exact (backward_all env n s _ x Hs (image_of s)). Qed.
End Merge.

(* the precondition the code tests gives the hypothesis Honly *)
Lemma in_all_preds g b k n : lookup g k = Some n -> has_edge n b = true -> In k (all_preds g b).
Proof. intros H E. unfold all_preds. apply in_map_iff. exists (k, n). split; [reflexivity|]. apply filter_In. split; [exact (lookup_in _ _ _ H) | exact E]. Qed.
Lemma only_pred g a b na nb : edges_ok g -> lookup g a = Some na -> g_live na = true -> lookup g b = Some nb -> g_live nb = true ->
  points_to na b = true -> length (all_preds g b) = 1%nat ->
  forall k n, lookup g k = Some n -> g_live n = true -> g_catch n = false -> k <> a -> k <> b -> points_to n b = false.
Proof.
  intros J Ha La Hb Lb Pa L k n Hk Lk _ Hka _. destruct (points_to n b) eqn:Pk; [|reflexivity]. exfalso.
  pose proof (in_all_preds g b a na Ha (J a na b nb Ha La Pa Hb Lb)) as Ia.
  pose proof (in_all_preds g b k n Hk (J k n b nb Hk Lk Pk Hb Lb)) as Ik.
  destruct (all_preds g b) as [|z [|z2 r]]; cbn [length] in L; try discriminate.
  destruct Ia as [<-|[]]. destruct Ik as [<-|[]]. apply Hka. reflexivity.
Qed.
Lemma entered_from_one_block_all {g b} : entered_from_one_block g b = true -> length (all_preds g b) = 1%nat.
Proof. unfold entered_from_one_block. intros [_ H]%andb_true_iff. now apply Nat.eqb_eq. Qed.

(* the four cases of short_circuit_struct *)
Inductive mcase := AndThen | OrThen | AndElse | OrElse.
Fixpoint keep_first (l seen : list Z) : list Z :=
  match l with [] => [] | x :: r => if existsb (Z.eqb x) seen then keep_first r seen else x :: keep_first r (x :: seen) end.
(* ldests of MergeNodes: the successors of a, then those of b, without a and b, each once *)
Definition dests_of (a b : Z) (na nb : gnode) : list Z := keep_first (filter (fun x => negb (is_ab a b x)) (g_sucs na ++ g_sucs nb)) [].
Definition is_cond_node (g : graph) (x : Z) : bool := match lookup g x with Some _ => true | None => false end.
(* at block a: which successor is absorbed, the merged condition, its successors - None when the case does not apply *)
Definition plan (g : graph) (a : Z) (k : mcase) : option (Z * cond * Z * Z) :=
  match lookup g a with
  | None => None
  | Some na =>
      let thn := g_true na in let els := g_false na in
      if negb (g_live na) || (thn =? a) || (els =? a) || (thn =? els) then None else
      match k with
      | AndThen => match lookup g thn with
                   | Some nb => if g_live nb && entered_from_one_block g thn && negb (points_to nb a) && (g_false nb =? els)
                                then Some (thn, SC (g_cond na) (g_cond nb) true false, g_true nb, els) else None
                   | None => None end
      | OrThen => match lookup g thn with
                  | Some nb => if g_live nb && entered_from_one_block g thn && negb (points_to nb a) && (g_true nb =? els)
                               then Some (thn, SC (g_cond na) (g_cond nb) false true, els, g_false nb) else None
                  | None => None end
      | AndElse => match lookup g els with
                   | Some nb => if g_live nb && entered_from_one_block g els && negb (points_to nb a) && (g_false nb =? thn)
                                then Some (els, SC (g_cond na) (g_cond nb) true true, g_true nb, thn) else None
                   | None => None end
      | OrElse => match lookup g els with
                  | Some nb => if g_live nb && entered_from_one_block g els && negb (points_to nb a) && (g_true nb =? thn)
                               then Some (els, SC (g_cond na) (g_cond nb) false false, thn, g_false nb) else None
                  | None => None end
      end
  end.
Definition apply_plan (g : graph) (a ab : Z) (k : mcase) : option graph :=
  match plan g a k, lookup g a with
  | Some (b, c, t, f), Some na =>
      match lookup g b with
      | Some nb => Some (merge g a b ab c t f (g_catch na) (dests_of a b na nb))
      | None => None
      end
  | _, _ => None
  end.

Lemma apply_plan_some {g a ab k g'} : apply_plan g a ab k = Some g' ->
  exists b c t f na nb, plan g a k = Some (b, c, t, f) /\ lookup g a = Some na /\ lookup g b = Some nb /\
    g' = merge g a b ab c t f (g_catch na) (dests_of a b na nb).
Proof.
  unfold apply_plan. destruct (plan g a k) as [[[[b c] t] f]|]; [|discriminate]. destruct (lookup g a) as [na|]; [|discriminate].
  destruct (lookup g b) as [nb|] eqn:Hb; [|discriminate]. intros [= <-]. exists b, c, t, f, na, nb. auto.
Qed.
Lemma bind_if_some {A B} (o : option A) (p : A -> bool) (r : A -> B) y :
  match o with Some n => if p n then Some (r n) else None | None => None end = Some y -> exists n, o = Some n /\ p n = true /\ y = r n.
Proof. destruct o as [n|]; [|discriminate]. destruct (p n) eqn:E; [|discriminate]. intros [= <-]. now exists n. Qed.
Lemma plan_inv {g a k b c t f na nb} : plan g a k = Some (b, c, t, f) -> lookup g a = Some na -> lookup g b = Some nb ->
  g_live na = true /\ g_live nb = true /\ a <> b /\ points_to na b = true /\ points_to nb a = false /\ entered_from_one_block g b = true /\
  (points_to na t = true \/ points_to nb t = true) /\ (points_to na f = true \/ points_to nb f = true) /\
  forall env, (if eval env c then t else f) = (let x := next env na in if x =? b then next env nb else x).
Proof.
  unfold plan. intros Ep Ha Hb. rewrite Ha in Ep. cbv zeta in Ep.
  destruct (negb (g_live na) || (g_true na =? a) || (g_false na =? a) || (g_true na =? g_false na)) eqn:Eg; [discriminate|].
  rewrite !orb_false_iff, negb_false_iff in Eg. destruct Eg as (((La & Eta) & Efa) & Ete).
  assert (Eft : (g_false na =? g_true na) = false) by lia.
  destruct k; apply bind_if_some in Ep as (nb' & Hb' & Ec & [= -> -> -> ->]).
  all: rewrite Hb in Hb'; injection Hb' as <-.
  all: rewrite !andb_true_iff, negb_true_iff, Z.eqb_eq in Ec; destruct Ec as (((Lb & Eo) & Pba) & E3).
  all: repeat split; auto using points_to_true, points_to_false; [lia|].
  (* in each case: the truth table of the merged condition against the two tests taken in turn *)
  all: intros env; unfold next; cbn [eval g_cond]; cbv zeta.
  all: destruct (eval env (g_cond na)), (eval env (g_cond nb)); cbn [negb andb orb]; rewrite ?Z.eqb_refl, ?Ete, ?Eft; congruence.
Qed.

(* whichever of the four cases applies: the merged graph has exactly the walks of the original one *)
Theorem planned_merge_is_sound g a ab k g' : edges_ok g -> fresh g ab -> apply_plan g a ab k = Some g' ->
  forall env s, s <> ab ->
  (forall n x, walk n g env s = Some x -> walk n g' env (if s =? a then ab else s) = Some x) /\
  (forall n x, walk n g' env (if s =? a then ab else s) = Some x -> exists m, walk m g env s = Some x).
Proof.
  intros J Hf Hap env s Hs. destruct (apply_plan_some Hap) as (b & c & t & f & na & nb & Ep & Ha & Hb & ->).
  destruct (plan_inv Ep Ha Hb) as (La & Lb & Hab & Pab & _ & Eo & _ & _ & Hc).
  pose proof (only_pred g a b na nb J Ha La Hb Lb Pab (entered_from_one_block_all Eo)) as Honly.
  split; intros n x W.
  - exact (merge_keeps_walks g a b ab na nb c t f _ _ Ha Hb Hab Hf Honly Hc env n s x Hs W).
  - exact (merge_adds_no_walks g a b ab na nb c t f _ _ Ha Hb Hab Hf Honly Hc env n s x Hs W).
Qed.
Print Assumptions planned_merge_is_sound.

(* the precondition as it was before the repair (visible predecessors only) does not give the theorem: block 2 is entered from
   block 0 and from block 1 of an exception handler; it is merged into block 1, and the walk from block 0 with every
   comparison true, which ended at exit 102, ends at exit 100 (defect 41 of DESIGN.md section 6) *)
Definition mk (c : cond) (t f : Z) (catch : bool) : gnode := {| g_cond := c; g_true := t; g_false := f; g_catch := catch; g_live := true; g_sucs := if t =? f then [t] else [t; f] |}.
Definition w_graph : graph := [(0, mk (Leaf 0 false) 2 1 false); (1, mk (Leaf 1 false) 100 2 true); (2, mk (Leaf 2 false) 102 100 false)].
Example visible_predecessors_are_not_enough :
  entered_from_one_visible_block w_graph 2 = true /\ entered_from_one_block w_graph 2 = false /\
  walk 5 w_graph (fun _ => true) 0 = Some 102 /\
  walk 5 (merge w_graph 1 2 3 (SC (Leaf 1 false) (Leaf 2 false) true true) 102 100 true [100; 102]) (fun _ => true) 0 = Some 100 /\
  apply_plan w_graph 1 3 AndElse = None.
Proof. repeat split; vm_compute; reflexivity. Qed.
