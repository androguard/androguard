(* C20 - the worklist iteration of BasicReachDef.run always ends: the sets only grow, they are bounded by the definitions of
   the method, and a node is put back on the list only when a set grew *)
From Coq Require Import ZArith List Bool Lia ZifyBool Sorted.
Require Import V.Lib.Val V.Lib.Result V.Lib.ListFacts V.Dad.ReachDefModel V.Dad.ReachDefProofs.
Import ListNotations.
Open Scope Z_scope.

Definition ssorted (l : list Z) : Prop := StronglySorted Z.lt l.
Lemma ins_sorted_sorted x l : ssorted l -> ssorted (ins_sorted x l).
Proof.
  unfold ssorted. induction 1 as [|y l Hs IH Hall]; cbn [ins_sorted]; [repeat constructor|].
  destruct (x <? y) eqn:E1; [|destruct (x =? y) eqn:E2].
  - constructor; [now constructor|]. constructor; [lia|]. eapply Forall_impl; [|exact Hall]. cbv beta. intros; lia.
  - now constructor.
  - constructor; [exact IH|]. apply Forall_forall. intros z Hz. apply ins_sorted_in in Hz as [->|Hz]; [lia|]. rewrite Forall_forall in Hall. now apply Hall.
Qed.
Lemma set_of_sorted l : ssorted (set_of l).
Proof. induction l as [|x l IH]; cbn [set_of fold_right]; [constructor | now apply ins_sorted_sorted]. Qed.
Lemma ssorted_nodup l : ssorted l -> NoDup l.
Proof. induction 1 as [|y l _ IH Hall]; constructor; [|exact IH]. intros H. rewrite Forall_forall in Hall. specialize (Hall y H). lia. Qed.
Lemma set_of_nodup l : NoDup (set_of l).
Proof. apply ssorted_nodup, set_of_sorted. Qed.
Lemma strict_superset_longer (a b : list Z) : NoDup a -> NoDup b -> incl a b -> ~ incl b a -> (length a < length b)%nat.
Proof.
  intros Na Nb Hab Hba. pose proof (NoDup_incl_length Na Hab). destruct (Nat.eq_dec (length a) (length b)) as [E|E]; [|lia].
  exfalso. apply Hba. apply NoDup_length_incl; [exact Na | lia | exact Hab].
Qed.

Definition room (U : nat) (ls : list (list Z)) : nat := list_sum (map (fun l => (U - length l)%nat) ls).
Lemma room_upd U : forall ls i x, (i < length ls)%nat -> (room U (upd ls i x) + (U - length (nth i ls []))%nat = room U ls + (U - length x))%nat.
Proof.
  unfold room. induction ls as [|l ls IH]; intros i x Hi; [cbn [length] in Hi; lia|]. destruct i as [|i]; unfold list_sum in *; cbn [upd map fold_right nth].
  - lia.
  - cbn [length] in Hi. specialize (IH i x ltac:(lia)). lia.
Qed.
Definition universe (m : method) : list Z := map snd (all_defs m).
Definition phi (m : method) (s : state) : nat := (room (length (universe m)) (st_R s) + room (length (universe m)) (st_A s))%nat.
Definition deg (m : method) : nat := S (length (concat (g_sucs m))).

Lemma nth_length_concat (L : list (list Z)) i : (length (nth i L []) <= length (concat L))%nat.
Proof.
  revert i. induction L as [|l L IH]; intros i; [destruct i; cbn; lia|]. cbn [concat]. rewrite app_length. destruct i as [|i]; cbn [nth]; [lia | specialize (IH i); lia].
Qed.
Lemma sucs_length m v : real m v -> (length (sucs m v) < deg m)%nat.
Proof.
  intros H. unfold sucs, deg, dummy, real in *. replace (v =? nnodes m) with false by lia. unfold nthz. replace (v <? 0) with false by lia.
  pose proof (nth_length_concat (g_sucs m) (Z.to_nat v)). lia.
Qed.

Definition mono (m : method) (s : state) : Prop :=
  sized m s /\
  (forall v, incl (getR s v) (inflow m s v)) /\ (forall v, In v (all_nodes m) -> incl (getA s v) (transfer m s v)) /\
  (forall v, NoDup (getR s v) /\ NoDup (getA s v)) /\
  (forall v, incl (getR s v) (universe m) /\ incl (getA s v) (universe m)).
Lemma getR_outside m s v : sized m s -> ~ In v (all_nodes m) -> getR s v = [] /\ getA s v = [].
Proof.
  intros [S1 S2] H. rewrite all_nodes_in in H. pose proof (all_nodes_length m) as L. unfold getR, getA, nthz.
  destruct (v <? 0) eqn:E; [auto|]. split; apply nth_overflow; lia.
Qed.
Lemma transfer_universe m s v : wf m -> In v (all_nodes m) -> incl (getR s v) (universe m) -> incl (transfer m s v) (universe m).
Proof.
  intros W Hv HR loc H. apply (transfer_in m s v loc W Hv) in H as [[H _]|(reg & Hd & _)]; [now apply HR|].
  apply in_map_iff. exists (reg, loc). split; [reflexivity | eapply node_defs_all; eauto].
Qed.
Lemma transfer_mono m s s' v : incl (getR s v) (getR s' v) -> incl (transfer m s v) (transfer m s' v).
Proof. intros H loc. unfold transfer. rewrite !in_app_iff, !filter_In. intros [[H1 H2]|Hl]; auto. Qed.
Lemma not_set_eq_strict a b : set_eqb a b = false -> incl b a -> ~ incl a b.
Proof. intros E Hba Hab. assert (set_eqb a b = true) by (apply set_eqb_spec; split; auto). congruence. Qed.

Lemma room_grow U ls i x : 0 <= i < Z.of_nat (length ls) -> NoDup (nthz ls i []) -> NoDup x -> incl (nthz ls i []) x ->
  set_eqb x (nthz ls i []) = false -> incl x U -> (room (length U) (updz ls i x) < room (length U) ls)%nat.
Proof.
  intros Hi No Nx Inc Ne HU. pose proof (strict_superset_longer _ _ No Nx Inc (not_set_eq_strict _ _ Ne Inc)) as Lt.
  pose proof (NoDup_incl_length Nx HU) as Le. unfold updz, nthz in *. replace (i <? 0) with false in * by lia.
  pose proof (room_upd (length U) ls (Z.to_nat i) x ltac:(lia)). lia.
Qed.
Lemma inflow_universe m s v : (forall p, incl (getA s p) (universe m)) -> incl (inflow m s v) (universe m).
Proof. intros H loc Hl. apply in_flat_map in Hl as (p & _ & Hl). now apply (H p). Qed.

(* both halves of a pass keep the growth invariant and do not raise queue length + degree * room *)
Lemma mono_halfR {m node w s w1 s1} : real m node -> mono m s -> half m node (inflow m s node) (getR s node) (setR s node) w s w1 s1 ->
  mono m s1 /\ (length w1 + deg m * phi m s1 <= length w + deg m * phi m s)%nat.
Proof.
  intros Rn Mo H. pose proof (half_queue H) as [L _]. destruct H as [(-> & -> & _)|(-> & -> & Ne)]; [split; [exact Mo | lia]|].
  destruct Mo as (Sz & M1 & M2 & M3 & M4). pose proof (real_all m node Rn) as An. pose proof (sucs_length m node Rn) as Dg.
  set (x := set_of (inflow m s node)) in *. assert (G := fun v => getR_setR m s node x v Sz An).
  assert (Hx : incl x (inflow m s node)) by (intros loc; apply set_of_in).
  assert (Inc : incl (getR s node) x) by (intros loc Hl; apply set_of_in; now apply M1).
  assert (HU : incl x (universe m)) by (eapply incl_tran; [exact Hx | apply inflow_universe; intros p; apply M4]).
  split.
  - split; [now apply sized_setR|]. split; [|split; [|split]].
    + intros v. rewrite G. destruct (Z.eqb_spec v node) as [->|_]; [exact Hx | apply M1].
    + intros v Hv. eapply incl_tran; [now apply M2 | apply transfer_mono]. rewrite G. destruct (Z.eqb_spec v node) as [->|_]; [exact Inc | apply incl_refl].
    + intros v. rewrite G. split; [|apply M3]. destruct (v =? node); [apply set_of_nodup | apply M3].
    + intros v. rewrite G. split; [|apply M4]. destruct (v =? node); [exact HU | apply M4].
  - assert (phi m (setR s node x) < phi m s)%nat; [|nia]. apply Nat.add_lt_mono_r, room_grow; try assumption.
    + destruct Sz as [S _]. rewrite S. now apply node_index.
    + apply M3.
    + apply set_of_nodup.
Qed.
Lemma mono_halfA {m node w s w1 s1} : wf m -> real m node -> mono m s -> half m node (transfer m s node) (getA s node) (setA s node) w s w1 s1 ->
  mono m s1 /\ (length w1 + deg m * phi m s1 <= length w + deg m * phi m s)%nat.
Proof.
  intros W Rn Mo H. pose proof (half_queue H) as [L _]. destruct H as [(-> & -> & _)|(-> & -> & Ne)]; [split; [exact Mo | lia]|].
  destruct Mo as (Sz & M1 & M2 & M3 & M4). pose proof (real_all m node Rn) as An. pose proof (sucs_length m node Rn) as Dg.
  set (x := set_of (transfer m s node)) in *. assert (G := fun v => getA_setA m s node x v Sz An).
  assert (Hx : incl x (transfer m s node)) by (intros loc; apply set_of_in).
  assert (Inc : incl (getA s node) x) by (intros loc Hl; apply set_of_in; now apply M2).
  assert (HU : incl x (universe m)) by (eapply incl_tran; [exact Hx | apply (transfer_universe m s node W An), M4]).
  split.
  - split; [now apply sized_setA|]. split; [|split; [|split]].
    + intros v. eapply incl_tran; [apply M1 | apply inflow_incl]. intros p _. rewrite G. destruct (Z.eqb_spec p node) as [->|_]; [exact Inc | apply incl_refl].
    + intros v Hv. rewrite G. destruct (Z.eqb_spec v node) as [->|_]; [exact Hx | now apply M2].
    + intros v. rewrite G. split; [apply M3|]. destruct (v =? node); [apply set_of_nodup | apply M3].
    + intros v. rewrite G. split; [apply M4|]. destruct (v =? node); [exact HU | apply M4].
  - assert (phi m (setA s node x) < phi m s)%nat; [|nia]. apply Nat.add_lt_mono_l, room_grow; try assumption.
    + destruct Sz as [_ S]. rewrite S. now apply node_index.
    + apply M3.
    + apply set_of_nodup.
Qed.
Lemma step_mono m node rest s w s' : wf m -> real m node -> mono m s -> step m node rest s = (w, s') ->
  mono m s' /\ (length w + deg m * phi m s' < length (node :: rest) + deg m * phi m s)%nat /\ (forall x, In x w -> In x rest \/ In x (sucs m node)).
Proof.
  intros W Rn Mo E. destruct (step_halves E) as (w1 & s1 & H1 & H2).
  destruct (mono_halfR Rn Mo H1) as [Mo1 C1]. destruct (mono_halfA W Rn Mo1 H2) as [Mo2 C2].
  split; [exact Mo2|]. split; [cbn [length]; lia|]. intros x Hx.
  apply (half_queue H2) in Hx as [Hx|Hx]; [apply (half_queue H1), Hx | now right].
Qed.

Theorem run_ends m : wf m -> forall fuel work s, mono m s -> (forall v, In v work -> real m v) ->
  (length work + deg m * phi m s < fuel)%nat -> run fuel m work s <> None.
Proof.
  intros W. induction fuel as [|f IH]; intros work s Mo Wk Hf; [lia|]. destruct work as [|node rest]; [discriminate|]. cbn [run].
  destruct (step m node rest s) as [w s1] eqn:E. assert (Rn : real m node) by (apply Wk; now left).
  destruct (step_mono m node rest s w s1 W Rn Mo E) as (Mo1 & Dec & Ww). apply IH; [exact Mo1| |lia].
  intros v Hv. destruct (Ww v Hv) as [H|H]; [apply Wk; now right | eapply sucs_real; [exact W | apply real_all; exact Rn | exact H]].
Qed.
Lemma run_more_fuel m : forall fuel work s r, run fuel m work s = Some r -> forall fuel', (fuel <= fuel')%nat -> run fuel' m work s = Some r.
Proof.
  induction fuel as [|f IH]; intros work s r H fuel' Hf.
  - destruct work; [|discriminate]. destruct fuel'; exact H.
  - destruct work as [|node rest]; [destruct fuel'; exact H|]. destruct fuel' as [|f']; [lia|]. cbn [run] in *.
    destruct (step m node rest s) as [w s1]. apply (IH _ _ _ H). lia.
Qed.
Lemma init_mono m : wf m -> mono m (init_state m).
Proof.
  intros W. split; [apply sized_init|]. split; [|split; [|split]].
  - intros v. rewrite getR_init. intros x [].
  - intros v _ loc H. apply (getA_init_last m v loc W) in H as (-> & H). apply (transfer_in m _ _ loc W (dummy_all m)). now right.
  - intros v. rewrite getR_init, getA_init. split; [constructor|]. destruct (v =? dummy m); [|constructor].
    (* the locs of the parameters are a part of all the locs *)
    pose proof (wf_locs m W) as N. unfold all_defs in N. destruct (in_split _ _ (dummy_all m)) as (a & b & Es). rewrite Es in N.
    rewrite flat_map_app in N. cbn [flat_map] in N. rewrite node_defs_dummy, !map_app in N.
    apply NoDup_app_r in N. now apply NoDup_app_l in N.
  - intros v. rewrite getR_init, getA_init. split; [intros x []|]. destruct (v =? dummy m); [|intros x []]. apply incl_map. intros d H.
    apply in_flat_map. exists (dummy m). split; [apply dummy_all | now rewrite node_defs_dummy].
Qed.
(* the bound: every node once, plus (out-degree bound) for every element that can still be added to a set *)
Definition steps_bound (m : method) : nat := S (length (g_rpo m) + deg m * (2 * length (all_nodes m) * length (universe m))).
Lemma room_le U ls : (room U ls <= length ls * U)%nat.
Proof. unfold room, list_sum. induction ls as [|l ls IH]; cbn [map fold_right length]; [lia|]. rewrite Nat.mul_succ_l. lia. Qed.
Theorem analysis_ends m : wf m -> exists s, (forall fuel, (steps_bound m <= fuel)%nat -> run fuel m (g_rpo m) (init_state m) = Some s) /\
  (forall v loc, In v (all_nodes m) -> (In loc (getR s v) <-> exists reg, reach_in m reg loc v)) /\ (analysis m = None \/ analysis m = Some s).
Proof.
  intros W. pose proof (init_mono m W) as Mo.
  assert (B : (length (g_rpo m) + deg m * phi m (init_state m) < steps_bound m)%nat).
  { unfold steps_bound, phi. destruct Mo as ([S1 S2] & _). pose proof (room_le (length (universe m)) (st_R (init_state m))). pose proof (room_le (length (universe m)) (st_A (init_state m))).
    rewrite S1 in H. rewrite S2 in H0. nia. }
  destruct (run (steps_bound m) m (g_rpo m) (init_state m)) as [s|] eqn:E.
  - exists s. split; [intros fuel Hf; now apply (run_more_fuel m _ _ _ _ E)|]. split; [exact (run_exact m _ s W E)|].
    unfold analysis. destruct (run (FUEL m) m (g_rpo m) (init_state m)) as [s'|] eqn:E'; [right | now left].
    destruct (Nat.le_ge_cases (FUEL m) (steps_bound m)) as [L|L].
    + rewrite (run_more_fuel m _ _ _ _ E' _ L) in E. congruence.
    + rewrite (run_more_fuel m _ _ _ _ E _ L) in E'. congruence.
  - exfalso. revert E. apply (run_ends m W); [exact Mo | apply W | exact B].
Qed.
