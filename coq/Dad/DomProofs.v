(* C18 - the executable specification of coq/Dad/DomModel.v meets the path definition of (immediate) dominators *)
From Coq Require Import ZArith List Bool Lia.
Require Import V.Lib.Val V.Lib.Result V.Lib.ListFacts V.Dad.DomModel.
Import ListNotations.
Open Scope Z_scope.

Definition edge (g : graph) (u v : Z) : Prop := In v (sucs g u).
(* path g a l b: l is the sequence of nodes of a walk from a to b, both ends included *)
Inductive path (g : graph) (a : Z) : list Z -> Z -> Prop :=
| p_one : path g a [a] a
| p_step l b c : path g a l b -> edge g b c -> path g a (l ++ [c]) c.
Definition reachable (g : graph) (entry v : Z) : Prop := exists l, path g entry l v.
Definition dominates (g : graph) (entry d v : Z) : Prop := reachable g entry v /\ forall l, path g entry l v -> In d l.
Definition is_idom (g : graph) (entry d v : Z) : Prop :=
  d <> v /\ dominates g entry d v /\ forall d', d' <> v -> dominates g entry d' v -> dominates g entry d' d.
Definition reach_av (g : graph) (entry : Z) (d : option Z) (v : Z) : Prop :=
  exists l, path g entry l v /\ forall x, In x l -> allowed d x = true.

Lemma path_ends g a l b : path g a l b -> In a l /\ In b l.
Proof. induction 1 as [|l b c H [IH1 IH2] He]; [split; now left|]. split; apply in_or_app; [now left | right; now left]. Qed.
Lemma path_prefix g a l b x : path g a l b -> In x l -> reachable g a x.
Proof.
  induction 1 as [|l b c H IH He]; intros Hx.
  - destruct Hx as [<-|[]]. exists [a]. constructor.
  - apply in_app_or in Hx as [Hx|[<-|[]]]; [exact (IH Hx) | exists (l ++ [c]); econstructor; eauto].
Qed.

Lemma memz_spec x l : memz x l = true <-> In x l.
Proof. exact (existsb_eqb_In x l). Qed.
Lemma add_new_in d : forall cands W x, In x (add_new d cands W) <-> In x W \/ (In x cands /\ allowed d x = true).
Proof.
  induction cands as [|v r IH]; intros W x; cbn [add_new In]; [tauto|]. pose proof (proj1 (memz_spec v W)) as M.
  destruct (allowed d v) eqn:Ea, (memz v W); cbn [andb negb]; rewrite IH, ?in_app_iff; cbn [In]; intuition congruence.
Qed.
Lemma add_new_len d : forall cands W, (length W <= length (add_new d cands W))%nat.
Proof.
  induction cands as [|v r IH]; intros W; cbn [add_new]; [lia|]. destruct (allowed d v && negb (memz v W)); [|apply IH].
  specialize (IH (W ++ [v])). rewrite app_length in IH. cbn [length] in IH. lia.
Qed.
Lemma add_new_stable d : forall cands W, length (add_new d cands W) = length W ->
  forall x, In x cands -> allowed d x = true -> In x W.
Proof.
  induction cands as [|v r IH]; intros W Hl x Hx Ha; [contradiction|]. cbn [add_new] in Hl.
  destruct (allowed d v && negb (memz v W)) eqn:E.
  - pose proof (add_new_len d r (W ++ [v])) as L. rewrite app_length in L. cbn [length] in L. lia.
  - destruct Hx as [<-|Hx]; [|now apply (IH W)]. rewrite Ha in E. cbn [andb] in E. apply negb_false_iff in E. now apply memz_spec.
Qed.

Lemma add_new_filter d p : forall cands W, (forall x, p x = false -> In x W) -> add_new d (filter p cands) W = add_new d cands W.
Proof.
  induction cands as [|v r IH]; intros W HW; [reflexivity|]. cbn [filter add_new]. destruct (p v) eqn:E.
  - cbn [add_new]. destruct (allowed d v && negb (memz v W)); apply IH; [|exact HW]. intros x Hx. apply in_or_app. left. exact (HW x Hx).
  - apply HW, memz_spec in E. rewrite E, andb_false_r. exact (IH W HW).
Qed.
Lemma add_new_app d : forall a b W, add_new d (a ++ b) W = add_new d b (add_new d a W).
Proof. induction a as [|v a IH]; intros b W; [reflexivity|]. cbn [app add_new]. destruct (_ && _); apply IH. Qed.
Lemma add_new_flat_filter d (p : Z -> Z -> bool) f : forall l W, (forall v x, In v l -> p v x = false -> In x W) ->
  add_new d (flat_map (fun v => filter (p v) (f v)) l) W = add_new d (flat_map f l) W.
Proof.
  induction l as [|v l IH]; intros W HW; [reflexivity|]. cbn [flat_map]. rewrite !add_new_app, add_new_filter.
  - apply IH. intros u x Hu Hx. apply add_new_in. left. exact (HW u x (or_intror Hu) Hx).
  - intros x. apply HW. left. reflexivity.
Qed.

Lemma closure_spec g d : forall fuel W S, closure fuel g d W = Some S ->
  (forall x, In x W -> In x S) /\
  (forall u v, In u S -> edge g u v -> allowed d v = true -> In v S) /\
  (forall P : Z -> Prop, (forall x, In x W -> P x) -> (forall u v, P u -> edge g u v -> allowed d v = true -> P v) -> forall x, In x S -> P x).
Proof.
  induction fuel as [|f IH]; intros W S H; [discriminate|]. cbn [closure] in H.
  destruct (length (grow g d W) =? length W)%nat eqn:E.
  - injection H as <-. apply Nat.eqb_eq in E. split; [auto|]. split; [|auto].
    intros u v Hu He Ha. apply (add_new_stable d _ _ E); [|exact Ha]. apply in_flat_map. exists u. auto.
  - destruct (IH _ _ H) as (I1 & I2 & I3). split; [|split; [exact I2|]].
    + intros x Hx. apply I1. unfold grow. apply add_new_in. now left.
    + intros P HW Hstep x Hx. apply (I3 P); auto. intros y Hy. unfold grow in Hy. apply add_new_in in Hy as [Hy|[Hy Ha]]; [auto|].
      apply in_flat_map in Hy as (u & Hu & Hv). apply (Hstep u); auto.
Qed.
Arguments closure_spec {g d fuel W S}.

Theorem reach_set_spec g entry d S : reach_set g entry d = Some S -> forall v, In v S <-> reach_av g entry d v.
Proof.
  unfold reach_set. destruct (allowed d entry) eqn:Ea.
  - intros H v. destruct (closure_spec H) as (I1 & I2 & I3). split.
    + apply (I3 (reach_av g entry d)).
      * intros x [<-|[]]. exists [entry]. split; [constructor|]. intros y [<-|[]]. exact Ea.
      * intros u w (l & Hp & Hl) He Ha. exists (l ++ [w]). split; [econstructor; eauto|].
        intros y Hy. apply in_app_or in Hy as [Hy|[<-|[]]]; auto.
    + intros (l & Hp & Hl). induction Hp as [|l b c Hp IH He].
      * apply I1. now left.
      * apply (I2 b); [|exact He|]; [apply IH|]; intros; apply Hl; apply in_or_app; [left; auto | right; now left].
  - intros H v. injection H as <-. split; [contradiction|]. intros (l & Hp & Hl). apply path_ends in Hp as [Hp _].
    rewrite (Hl _ Hp) in Ea. discriminate.
Qed.

Lemma dominates_by_removal g entry d v :
  dominates g entry d v <-> reachable g entry v /\ ~ reach_av g entry (Some d) v.
Proof.
  unfold dominates. split; intros [Hr H]; split; auto.
  - intros (l & Hp & Hl). specialize (H l Hp). specialize (Hl d H). cbn [allowed] in Hl. rewrite Z.eqb_refl in Hl. discriminate.
  - intros l Hp. destruct (in_dec Z.eq_dec d l) as [Hin|Hn]; [exact Hin|]. exfalso. apply H. exists l. split; [exact Hp|].
    intros x Hx. cbn [allowed]. apply negb_true_iff. apply Z.eqb_neq. intros ->. contradiction.
Qed.
Lemma reach_none g entry v : reach_av g entry None v <-> reachable g entry v.
Proof. split; [intros (l & Hp & _); now exists l | intros (l & Hp); exists l; split; [exact Hp | reflexivity]]. Qed.
Lemma dominator_reachable {g entry d v} : dominates g entry d v -> reachable g entry d.
Proof. intros [(l & Hp) H]. exact (path_prefix g entry l v d Hp (H l Hp)). Qed.

Lemma map_opt_in {A B} (f : A -> option B) : forall l r, map_opt f l = Some r ->
  (forall y, In y r -> exists x, In x l /\ f x = Some y) /\ (forall x, In x l -> exists y, In y r /\ f x = Some y).
Proof.
  induction l as [|a l IH]; intros r H; cbn [map_opt] in H.
  - injection H as <-. split; intros ? [].
  - destruct (f a) as [b|] eqn:Ea; [|discriminate]. destruct (map_opt f l) as [r'|] eqn:El; [|discriminate]. injection H as <-.
    destruct (IH r' eq_refl) as [I1 I2]. split.
    + intros y [<-|Hy]; [|destruct (I1 y Hy) as (x & Hx & E)]; eauto using in_eq, in_cons.
    + intros x [<-|Hx]; [|destruct (I2 x Hx) as (y & Hy & E)]; eauto using in_eq, in_cons.
Qed.
Arguments map_opt_in {A B f l r}.
Lemma map_opt_ext {A B} {f f' : A -> option B} : (forall x, f x = f' x) -> forall l, map_opt f l = map_opt f' l.
Proof. intros E. induction l as [|x l IH]; [reflexivity|]. cbn [map_opt]. rewrite E, IH. reflexivity. Qed.
Lemma map_opt_pairs {A B} {f : A -> option B} {l r} : map_opt (fun x => option_map (pair x) (f x)) l = Some r ->
  (forall x y, In (x, y) r -> In x l /\ f x = Some y) /\ (forall x, In x l -> exists y, In (x, y) r).
Proof.
  intros H. destruct (map_opt_in H) as [I1 I2]. split.
  - intros x y I. destruct (I1 _ I) as (x' & Hx & E). destruct (f x') eqn:F; [|discriminate]. injection E as <- <-. auto.
  - intros x Hx. destruct (I2 x Hx) as ([x' y] & I & E). destruct (f x); [|discriminate]. injection E as <- <-. eauto.
Qed.
Lemma find_key {B} (m : list (Z * B)) k :
  match find (fun p => fst p =? k) m with Some (k', b) => k' = k /\ In (k, b) m | None => forall b, ~ In (k, b) m end.
Proof.
  destruct (find _ m) as [[k' b]|] eqn:F.
  - apply find_some in F as [I E]. apply Z.eqb_eq in E as <-. auto.
  - intros b I. apply (find_none _ _ F) in I. cbn [fst] in I. rewrite Z.eqb_refl in I. discriminate.
Qed.

Section Table.
Variables (g : graph) (entry : Z) (R : list Z) (T : list (Z * list Z)).
Hypothesis HR : reach_set g entry None = Some R.
Hypothesis HT : without_table g entry R = Some T.

Lemma in_R v : In v R <-> reachable g entry v.
Proof. rewrite <- reach_none. apply (reach_set_spec _ _ _ _ HR). Qed.

Lemma dom_b_spec d v : In v R -> (dom_b T d v = true <-> dominates g entry d v).
Proof.
  intros Hv. destruct (map_opt_pairs HT) as [T1 T2]. pose proof (find_key T d) as F. unfold dom_b. destruct (find _ T) as [[d' W]|].
  - destruct F as [-> F]. apply T1 in F as [_ HW]. apply in_R in Hv.
    rewrite dominates_by_removal, negb_true_iff, <- not_true_iff_false, memz_spec, (reach_set_spec _ _ _ _ HW). tauto.
  - split; [discriminate|]. intros H. destruct (T2 d) as [W I]; [apply in_R, (dominator_reachable H) | destruct (F W I)].
Qed.
Lemma sdoms_spec d v : In v R -> (In d (sdoms T R v) <-> d <> v /\ dominates g entry d v).
Proof.
  intros Hv. unfold sdoms. rewrite filter_In, andb_true_iff, negb_true_iff, Z.eqb_neq, (dom_b_spec d v Hv).
  split; [tauto|]. intros [Hn Hd]. split; [|auto]. apply in_R, (dominator_reachable Hd).
Qed.

(* the one strict dominator that the filter leaves is dominated by all the others *)
Lemma idom_of_spec v i : In v R -> idom_of T R entry v = Some i ->
  match i with None => v = entry | Some d => v <> entry /\ is_idom g entry d v end.
Proof.
  intros Hv E. unfold idom_of in E. destruct (Z.eqb_spec v entry) as [Ev|Ev]; [injection E as <-; exact Ev|].
  destruct (filter _ (sdoms T R v)) as [|d [|? ?]] eqn:Ef; try discriminate. injection E as <-.
  assert (Hd : In d (filter (fun d0 => forallb (fun d' => dom_b T d' d0) (sdoms T R v)) (sdoms T R v))) by (rewrite Ef; now left).
  apply filter_In in Hd as [Hsd Hall]. rewrite forallb_forall in Hall. apply (sdoms_spec d v Hv) in Hsd as [Hne Hdom].
  split; [exact Ev|]. split; [exact Hne|]. split; [exact Hdom|]. intros d' Hne' Hd'.
  apply dom_b_spec; [apply in_R, (dominator_reachable Hdom) | apply Hall, sdoms_spec; auto].
Qed.
End Table.

Theorem spec_idom_sound g entry m : spec_idom g entry = Some m ->
  (forall v, (exists i, In (v, i) m) <-> reachable g entry v) /\
  (forall v, In (v, None) m -> v = entry) /\
  (forall v d, In (v, Some d) m -> v <> entry /\ is_idom g entry d v).
Proof.
  unfold spec_idom. destruct (reach_set g entry None) as [R|] eqn:HR; [|discriminate].
  destruct (without_table g entry R) as [T|] eqn:HT; [|discriminate]. intros Hm.
  destruct (map_opt_pairs Hm) as [M1 M2]. split; [|split].
  - intros v. rewrite <- (in_R g entry R HR). split; [intros (i & H); apply (M1 _ _ H) | intros Hv; destruct (M2 v Hv); eauto].
  - intros v H. apply M1 in H as [Hv E]. exact (idom_of_spec g entry R T HR HT v None Hv E).
  - intros v d H. apply M1 in H as [Hv E]. exact (idom_of_spec g entry R T HR HT v (Some d) Hv E).
Qed.
