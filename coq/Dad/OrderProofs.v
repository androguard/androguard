(* C22 - proofs about coq/Dad/OrderModel.v: the result of every modelled walk over a set is the same for every order *)
From Coq Require Import ZArith List Bool Lia ZifyBool Permutation.
Require Import V.Lib.Val V.Lib.ListFacts V.Dad.OrderModel.
Import ListNotations.
Open Scope Z_scope.

Lemma mem_In l x : mem l x = true <-> In x l.
Proof. exact (existsb_eqb_In x l). Qed.
Lemma existsb_perm (f : Z -> bool) l l' : Permutation l l' -> existsb f l = existsb f l'.
Proof. apply ListFacts.existsb_perm. Qed.
Lemma forallb_perm (f : Z -> bool) l l' : Permutation l l' -> forallb f l = forallb f l'.
Proof. apply ListFacts.forallb_perm. Qed.
Lemma mem_perm {l l'} x : Permutation l l' -> mem l x = mem l' x.
Proof. apply existsb_perm. Qed.

Lemma existsb_ext' (f g : Z -> bool) l : (forall x, f x = g x) -> existsb f l = existsb g l.
Proof. intros H. induction l as [|x l IH]; [reflexivity|]. cbn [existsb]. now rewrite H, IH. Qed.
Lemma fold_left_ext {S A : Type} (f g : S -> A -> S) : (forall s a, f s a = g s a) -> forall l s, fold_left f l s = fold_left g l s.
Proof. intros H. induction l as [|a l IH]; intros s; cbn [fold_left]; [reflexivity|]. now rewrite H, IH. Qed.

(* a fold whose steps commute on the states that can occur gives the same result for every order *)
Lemma fold_left_perm_inv {S A : Type} (f : S -> A -> S) (P : S -> Prop) (Q : A -> Prop) :
  (forall s a, P s -> Q a -> P (f s a)) -> (forall s a b, P s -> Q a -> Q b -> f (f s a) b = f (f s b) a) ->
  forall l l', Permutation l l' -> Forall Q l -> forall s, P s -> fold_left f l s = fold_left f l' s.
Proof.
  intros Hp Hc l l' Hperm. induction Hperm as [|x l l' _ IH|x y l|l l' l'' P1 IH1 _ IH2]; intros HQ s Hs; cbn [fold_left].
  - reflexivity.
  - inversion HQ; subst. apply IH; [assumption | now apply Hp].
  - inversion HQ as [|? ? Hy HQ']; subst. inversion HQ' as [|? ? Hx ?]; subst. now rewrite Hc.
  - rewrite IH1 by assumption. apply IH2; [exact (Permutation_Forall P1 HQ) | exact Hs].
Qed.

Theorem each_pointwise g : forall order st y, NoDup order ->
  lookup y (each g order st) = if mem order y then (match g y (lookup y st) with Some v => Some v | None => lookup y st end) else lookup y st.
Proof.
  induction order as [|x order IH]; intros st y Hnd; [reflexivity|]. inversion Hnd as [|? ? Hx Hnd']; subst.
  unfold each in *. cbn [fold_left]. rewrite IH by exact Hnd'. unfold mem. cbn [existsb]. fold (mem order y).
  rewrite <- mem_In in Hx. rewrite Z.eqb_sym. destruct (Z.eqb_spec x y) as [<-|Hne]; cbn [orb].
  - (* x itself is not met again *)
    rewrite (not_true_is_false _ Hx). destruct (g x (lookup x st)); cbn [lookup]; now rewrite ?Z.eqb_refl.
  - apply Z.eqb_neq in Hne. destruct (g x (lookup x st)); cbn [lookup]; now rewrite ?Hne.
Qed.
Theorem each_order_free g order order' st y : NoDup order -> Permutation order order' ->
  lookup y (each g order st) = lookup y (each g order' st).
Proof.
  intros Hnd P. rewrite !each_pointwise by (try exact Hnd; now apply (Permutation_NoDup P)). now rewrite (mem_perm y P).
Qed.

Lemma leaves_perm c c' sucs n : Permutation c c' -> leaves c sucs n = leaves c' sucs n.
Proof.
  intros P. unfold leaves. rewrite (mem_perm n P). f_equal. apply existsb_ext'. intros s. now rewrite (mem_perm s P).
Qed.
(* after the repair: the walk is the reverse post order of the graph, the set only answers membership questions *)
Theorem compute_end_set_order_free walk c c' sucs head : Permutation c c' -> compute_end walk c sucs head = compute_end walk c' sucs head.
Proof.
  intros P. unfold compute_end. rewrite (fold_left_ext _ (fun acc n => if leaves c' sucs n then Some n else acc)); [reflexivity|].
  intros acc n. now rewrite (leaves_perm c c' sucs n P).
Qed.
(* before the repair the walk was the set itself: two nodes that both leave the interval, two orders, two different ends *)
Theorem old_compute_end_refuted : exists c c' sucs head, Permutation c c' /\ compute_end c c sucs head <> compute_end c' c' sucs head.
Proof.
  exists [1; 2; 3], [1; 3; 2], (fun n => if n =? 2 then [7] else if n =? 3 then [8] else [2; 3]), 1. split.
  - apply perm_skip, perm_swap.
  - vm_compute. discriminate.
Qed.

Lemma add_decl_in l v x : In x (add_decl l v) <-> In x l \/ x = v.
Proof.
  unfold add_decl. destruct (mem l v) eqn:E.
  - apply mem_In in E. split; [now left | intros [H | ->]; assumption].
  - rewrite in_app_iff. cbn [In]. intuition.
Qed.
Lemma add_decl_nodup l v : NoDup l -> NoDup (add_decl l v).
Proof.
  intros H. unfold add_decl. destruct (mem l v) eqn:E; [exact H|]. apply (NoDup_Add (Add_app v l [])). rewrite app_nil_r.
  split; [exact H|]. rewrite <- mem_In. congruence.
Qed.
Lemma filter_and (f g : Z -> bool) l : filter f (filter g l) = filter (fun x => g x && f x) l.
Proof. induction l as [|x l IH]; [reflexivity|]. cbn [filter]. destruct (g x); cbn [filter andb]; [destruct (f x); now rewrite IH | exact IH]. Qed.
Lemma mem_app l v y : mem (l ++ [v]) y = mem l y || (y =? v).
Proof. unfold mem. rewrite existsb_app. cbn [existsb]. now rewrite orb_false_r. Qed.
Lemma fold_add_decl_app : forall vs l, fold_left add_decl vs l = l ++ filter (fun y => negb (mem l y)) (firsts vs).
Proof.
  induction vs as [|v vs IH]; intros l; cbn [fold_left firsts filter]; [now rewrite app_nil_r|]. rewrite IH. unfold add_decl. destruct (mem l v) eqn:E; cbn [negb].
  - f_equal. rewrite filter_and. apply filter_ext. intros y. destruct (Z.eqb_spec y v) as [->|_]; [now rewrite E | now destruct (mem l y)].
  - rewrite <- app_assoc. cbn [app]. f_equal. f_equal. rewrite filter_and. apply filter_ext. intros y. rewrite mem_app. destruct (mem l y), (y =? v); reflexivity.
Qed.
(* the declarations of a block are written in the order in which they were registered, each variable once *)
Theorem decls_are_first_registrations vs : decls vs = firsts vs.
Proof. unfold decls. rewrite fold_add_decl_app. exact (filter_true (firsts vs)). Qed.
Theorem decls_nodup vs : NoDup (decls vs).
Proof. unfold decls. generalize (NoDup_nil Z). generalize (@nil Z). induction vs as [|v vs IH]; intros l H; cbn [fold_left]; [exact H|]. apply IH. now apply add_decl_nodup. Qed.
Theorem decls_in vs x : In x (decls vs) <-> In x vs.
Proof.
  unfold decls. assert (G : forall l, In x (fold_left add_decl vs l) <-> In x l \/ In x vs).
  { induction vs as [|v vs IH]; intros l; cbn [fold_left In]; [tauto|]. rewrite IH, add_decl_in. intuition. }
  rewrite G. cbn [In]. tauto.
Qed.
(* before the repair the block kept a set and the writer walked it: the same variables, in an order chosen by the hashes *)
Theorem old_declaration_order_refuted : exists written written' : list Z, Permutation written written' /\ written <> written'.
Proof. exists [5; 6], [6; 5]. split; [apply perm_swap | discriminate]. Qed.

Theorem max_by_order_free num l l' : (forall x y, In x l -> In y l -> num x = num y -> x = y) -> Permutation l l' -> max_by num l = max_by num l'.
Proof.
  intros Hinj P. unfold max_by.
  apply (fold_left_perm_inv _ (fun _ => True) (fun x => In x l)); auto; [|now apply Forall_forall].
  (* whichever of x and y is met first, the one with the largest number stays, and no two have the same number *)
  intros [a|] x y _ Hx Hy; pose proof (Hinj x y Hx Hy) as E.
  - destruct (num a <? num x) eqn:E1, (num a <? num y) eqn:E2; rewrite ?E1, ?E2; destruct (num x <? num y) eqn:E3, (num y <? num x) eqn:E4;
      try reflexivity; try lia; f_equal; lia.
  - destruct (num x <? num y) eqn:E3, (num y <? num x) eqn:E4; try reflexivity; try lia; f_equal; lia.
Qed.

Section Follow.
  Variables (info : Z -> cnode) (num : Z -> Z).
  (* what a node of the loop offers as the follow node: its branch that leaves the loop *)
  Definition cand (loop : list Z) (n : Z) : option Z :=
    let c := info n in
    if c_cond c then (if negb (mem loop (c_true c)) then Some (c_true c) else if negb (mem loop (c_false c)) then Some (c_false c) else None) else None.
  Definition min_step (st : option Z * option Z) (o : option Z) : option Z * option Z :=
    match o with None => st | Some x => if lt_inf (num x) (snd st) then (Some x, Some (num x)) else st end.
  Definition one_foot_in (loop : list Z) (n : Z) : Prop :=
    c_cond (info n) = true -> mem loop (c_true (info n)) = true \/ mem loop (c_false (info n)) = true.
  Lemma follow_step_is_min_step loop st n : one_foot_in loop n -> follow_step info num loop st n = min_step st (cand loop n).
  Proof.
    unfold one_foot_in, follow_step, cand, min_step. intros H. destruct (c_cond (info n)); [|reflexivity]. specialize (H eq_refl).
    destruct (mem loop (c_true (info n))) eqn:Et, (mem loop (c_false (info n))) eqn:Ef; cbn [negb andb]; rewrite ?andb_false_r, ?andb_true_r; try reflexivity.
    destruct H; discriminate.
  Qed.
  Lemma fold_follow_is_fold_min loop : forall order st, Forall (one_foot_in loop) order ->
    fold_left (follow_step info num loop) order st = fold_left min_step (map (cand loop) order) st.
  Proof.
    induction order as [|n order IH]; intros st H; [reflexivity|]. inversion H; subst. cbn [fold_left map]. rewrite follow_step_is_min_step by assumption. now apply IH.
  Qed.
  Theorem min_fold_order_free (cands cands' : list (option Z)) :
    (forall x y, In (Some x) cands -> In (Some y) cands -> num x = num y -> x = y) -> Permutation cands cands' ->
    fold_left min_step cands (None, None) = fold_left min_step cands' (None, None).
  Proof.
    intros Hinj P. apply (fold_left_perm_inv min_step (fun _ => True) (fun o => In o cands)); auto; [|now apply Forall_forall].
    (* of two candidates met in either order the one with the smaller number stays, whatever the state before *)
    intros [w [m|]] [x|] [y|] _ Hx Hy; try reflexivity; pose proof (Hinj x y Hx Hy) as E; unfold min_step; cbn [snd lt_inf].
    - destruct (num x <? m) eqn:E1, (num y <? m) eqn:E2; cbn [snd lt_inf]; rewrite ?E1, ?E2;
        destruct (num y <? num x) eqn:E3, (num x <? num y) eqn:E4; try reflexivity; try lia; rewrite E by lia; reflexivity.
    - destruct (num y <? num x) eqn:E1, (num x <? num y) eqn:E2; try reflexivity; try lia. rewrite E by lia. reflexivity.
  Qed.
  (* the scan of the endless-loop case gives the same follow node for every order of the loop's nodes *)
  Theorem follow_scan_order_free loop order order' :
    Forall (one_foot_in loop) order ->
    (forall n m x y, In n order -> In m order -> cand loop n = Some x -> cand loop m = Some y -> num x = num y -> x = y) ->
    Permutation order order' -> follow_scan info num loop order = follow_scan info num loop order'.
  Proof.
    intros H1 Hinj P. unfold follow_scan. f_equal.
    pose proof (Permutation_Forall P H1) as H1'.
    rewrite !fold_follow_is_fold_min by assumption. apply min_fold_order_free; [|now apply Permutation_map].
    intros x y Hx Hy. apply in_map_iff in Hx as (n & En & Hn). apply in_map_iff in Hy as (m & Em & Hm). now apply (Hinj n m).
  Qed.
  Lemma follow_scan_loop_perm loop loop' order : Permutation loop loop' -> follow_scan info num loop order = follow_scan info num loop' order.
  Proof.
    intros P. unfold follow_scan. f_equal. apply fold_left_ext. intros st n. unfold follow_step. now rewrite !(mem_perm _ P).
  Qed.
  Theorem loop_follow_order_free pre post start latch order order' :
    Forall (one_foot_in order) order ->
    (forall n m x y, In n order -> In m order -> cand order n = Some x -> cand order m = Some y -> num x = num y -> x = y) ->
    Permutation order order' -> loop_follow info num pre post start latch order = loop_follow info num pre post start latch order'.
  Proof.
    intros H1 Hinj P. unfold loop_follow. rewrite !(mem_perm _ P). destruct pre; [reflexivity|]. destruct post; [reflexivity|].
    rewrite (follow_scan_order_free order order order' H1 Hinj P). apply follow_scan_loop_perm, P.
  Qed.
End Follow.
Theorem follow_scan_needs_one_foot_in : exists info num loop order order', Permutation order order' /\ follow_scan info num loop order <> follow_scan info num loop order'.
Proof.
  exists (fun n => if n =? 1 then {| c_cond := true; c_true := 15; c_false := 13 |} else {| c_cond := true; c_true := 14; c_false := 2 |}), (fun n => n), [1; 2], [1; 2], [2; 1].
  split; [apply perm_swap | vm_compute; discriminate].
Qed.

Section Dom.
  Variables (up num : Z -> Z) (root : Z).
  Fixpoint iter_up (k : nat) (x : Z) : Z := match k with O => x | S k => iter_up k (up x) end.
  Definition Anc (x y : Z) : Prop := exists k, iter_up k x = y.
  Definition Dn (x : Z) : Prop := Anc x root.                            (* x is a node of the tree *)
  Hypothesis Hroot : up root = root.
  Hypothesis Hdec : forall x, Dn x -> x <> root -> num (up x) < num x.    (* a dominator comes earlier in reverse post order *)
  Hypothesis Hinj : forall x y, Dn x -> Dn y -> num x = num y -> x = y.

  Lemma Anc_refl x : Anc x x.  Proof. now exists O. Qed.
  Lemma iter_up_add : forall j k x, iter_up (j + k) x = iter_up k (iter_up j x).
  Proof. induction j as [|j IH]; intros k x; cbn [iter_up Nat.add]; [reflexivity | apply IH]. Qed.
  Lemma Anc_trans x y z : Anc x y -> Anc y z -> Anc x z.
  Proof. intros [j <-] [k <-]. exists (j + k)%nat. apply iter_up_add. Qed.
  Lemma Anc_up x : Anc x (up x).  Proof. now exists 1%nat. Qed.
  Lemma Anc_step {x y} : Anc x y -> y = x \/ Anc (up x) y.
  Proof. intros [[|k] <-]; [now left | right; now exists k]. Qed.
  Lemma Dn_up x : Dn x -> Dn (up x).
  Proof. intros H. destruct (Anc_step H) as [E | H']; [|exact H']. rewrite <- E, Hroot. apply Anc_refl. Qed.
  Lemma Dn_anc x y : Dn x -> Anc x y -> Dn y.
  Proof. intros Hx [k <-]. revert x Hx. induction k as [|k IH]; intros x Hx; cbn [iter_up]; [exact Hx | apply IH, Dn_up, Hx]. Qed.
  Lemma Anc_num x y : Dn x -> Anc x y -> num y <= num x.
  Proof.
    intros Hx [k <-]. revert x Hx. induction k as [|k IH]; intros x Hx; cbn [iter_up]; [lia|].
    destruct (Z.eq_dec x root) as [-> | Hne]; [rewrite Hroot; now apply IH|]. specialize (IH (up x) (Dn_up x Hx)). specialize (Hdec x Hx Hne). lia.
  Qed.
  Lemma Anc_antisym x y : Dn x -> Anc x y -> Anc y x -> x = y.
  Proof. intros Hx H1 H2. assert (Hy : Dn y) by now apply (Dn_anc x). apply Hinj; auto. pose proof (Anc_num x y Hx H1). pose proof (Anc_num y x Hy H2). lia. Qed.
  Lemma root_first x : Dn x -> num root <= num x.
  Proof. intros H. now apply Anc_num. Qed.

  (* the later of two different nodes is not above the other, so what lies above both also lies above its parent *)
  Lemma Anc_both_up a b d : Dn a -> num a < num b -> Anc a d -> Anc b d -> Anc (up b) d.
  Proof. intros Ha Hlt H1 H2. destruct (Anc_step H2) as [-> | H]; [pose proof (Anc_num a b Ha H1); lia | exact H]. Qed.
  Lemma later_not_root a b : Dn a -> num a < num b -> b <> root.
  Proof. intros Ha Hlt ->. pose proof (root_first a Ha). lia. Qed.

  (* common_dom returns the lowest node that lies above both *)
  Theorem common_dom_spec : forall fuel a b, Dn a -> Dn b -> Z.of_nat fuel > (num a - num root) + (num b - num root) ->
    exists c, common_dom fuel up num a b = Some c /\ Anc a c /\ Anc b c /\ (forall d, Anc a d -> Anc b d -> Anc c d).
  Proof.
    induction fuel as [|f IH]; intros a b Ha Hb Hf.
    - pose proof (root_first a Ha). pose proof (root_first b Hb). lia.
    - cbn [common_dom]. destruct (Z.eqb_spec a b) as [<-|Hne].
      + exists a. repeat split; auto using Anc_refl.
      + destruct (num a <? num b) eqn:E1; [|destruct (num b <? num a) eqn:E2].
        * destruct (IH a (up b) Ha (Dn_up b Hb)) as (c & Ec & A1 & A2 & A3); [pose proof (Hdec b Hb (later_not_root a b Ha ltac:(lia))); lia|].
          exists c. repeat split; auto; [apply (Anc_trans b (up b) c); auto using Anc_up|].
          intros d Hd1 Hd2. apply A3; [exact Hd1 | apply (Anc_both_up a b); auto; lia].
        * destruct (IH (up a) b (Dn_up a Ha) Hb) as (c & Ec & A1 & A2 & A3); [pose proof (Hdec a Ha (later_not_root b a Hb ltac:(lia))); lia|].
          exists c. repeat split; auto; [apply (Anc_trans a (up a) c); auto using Anc_up|].
          intros d Hd1 Hd2. apply A3; [apply (Anc_both_up b a); auto; lia | exact Hd2].
        * destruct Hne. apply Hinj; auto; lia.
  Qed.

  Definition Lca (l : list Z) (c : Z) : Prop := (forall x, In x l -> Anc x c) /\ (forall d, (forall x, In x l -> Anc x d) -> Anc c d).
  Lemma Lca_unique l c c' : l <> [] -> (forall x, In x l -> Dn x) -> Lca l c -> Lca l c' -> c = c'.
  Proof.
    intros Hne Hd [A1 A2] [B1 B2]. destruct l as [|x l]; [congruence|]. assert (Hc : Dn c) by (apply (Dn_anc x); [apply Hd | apply A1]; now left).
    apply Anc_antisym; auto.
  Qed.
  (* c is the lowest node above the nodes seen so far; it lies in the tree and within the bound, since it is above one of them *)
  Lemma fold_common_dom fuel bound : Z.of_nat fuel >= 2 * bound -> forall rest seen c, Lca seen c -> Dn c -> num c - num root < bound ->
    (forall x, In x rest -> Dn x /\ num x - num root < bound) ->
    exists c', fold_left (fun acc x => match acc with Some c => common_dom fuel up num c x | None => None end) rest (Some c) = Some c' /\ Lca (seen ++ rest) c'.
  Proof.
    intros Hfuel. induction rest as [|x rest IH]; intros seen c [L1 L2] Dc Bc Hall; [exists c; now rewrite app_nil_r|]. cbn [fold_left].
    destruct (Hall x) as [Dx Bx]; [now left|]. destruct (common_dom_spec fuel c x Dc Dx) as (c2 & -> & A1 & A2 & A3); [lia|].
    replace (seen ++ x :: rest) with ((seen ++ [x]) ++ rest) by now rewrite <- app_assoc.
    apply IH; [split | now apply (Dn_anc c) | pose proof (Anc_num c c2 Dc A1); lia | intros z Hz; apply Hall; now right].
    - intros z Hz. apply in_app_or in Hz as [Hz | [<- | []]]; [apply (Anc_trans z c c2); auto | exact A2].
    - intros d Hd. apply A3; [apply L2; intros z Hz | ]; apply Hd, in_or_app; [now left | right; now left].
  Qed.
  Lemma common_dom_all_lca fuel bound l : Z.of_nat fuel >= 2 * bound -> l <> [] -> (forall x, In x l -> Dn x /\ num x - num root < bound) ->
    exists c, common_dom_all fuel up num l = Some c /\ Lca l c.
  Proof.
    intros Hfuel Hne H. destruct l as [|first rest]; [congruence|]. destruct (H first) as [D B]; [now left|].
    apply (fold_common_dom fuel bound Hfuel rest [first] first); auto; [|intros x Hx; apply H; now right].
    split; [intros x [<- | []]; apply Anc_refl | intros d Hd; apply Hd; now left].
  Qed.
  (* place_declarations: whichever node the set hands out first and in whichever order the others follow, the same node results *)
  Theorem common_dom_all_order_free fuel bound order order' :
    Z.of_nat fuel >= 2 * bound -> (forall x, In x order -> Dn x /\ num x - num root < bound) -> Permutation order order' ->
    common_dom_all fuel up num order = common_dom_all fuel up num order'.
  Proof.
    intros Hfuel Hall P. destruct (list_eq_dec Z.eq_dec order []) as [->|Hne]; [apply Permutation_nil in P; now subst|].
    assert (Hne' : order' <> []) by (intros ->; now apply Permutation_sym, Permutation_nil in P).
    assert (Hin : forall x, In x order' -> In x order) by (intros x; apply Permutation_in, Permutation_sym, P).
    destruct (common_dom_all_lca fuel bound order Hfuel Hne Hall) as (c & -> & Hc).
    destruct (common_dom_all_lca fuel bound order' Hfuel Hne') as (c' & -> & C1 & C2); [now auto|]. f_equal.
    apply (Lca_unique order); auto; [intros x Hx; now apply Hall|].
    split; [intros x Hx; apply C1, (Permutation_in _ P), Hx | intros d Hd; apply C2; auto].
  Qed.
End Dom.
