(* C18 - dom_lt (androguard/decompiler/graph.py), the Lengauer-Tarjan algorithm as the code runs it: the depth-first numbering
   with its predecessor sets (_dfs), path compression (_compress), _eval, _link, the semidominator pass with its buckets
   (steps 2 and 3) and the final pass (step 4).  Dictionaries are functions from node to value; "no ancestor" (0 in the code,
   tested by truthiness: nodes are objects and always true) is -1 here, because node 0 is a node; the sets pred[w] and bucket[v]
   are lists without repetition in insertion order (Python iterates a set of nodes in an order that depends on memory
   addresses; the result of the algorithm does not depend on it, and the comparison with the code is on the result).
   A graph is the list of successor lists (edges then catch edges: Graph.all_sucs) of the nodes 0..n-1, as in DomModel.v. *)
From Coq Require Import ZArith List Bool.
Require Import V.Lib.Val V.Lib.Result V.Dad.DomModel.
Import ListNotations.
Open Scope Z_scope.

Definition upd {A} (m : Z -> A) (k : Z) (v : A) : Z -> A := fun x => if x =? k then v else m x.
Definition add_set (l : list Z) (x : Z) : list Z := if memz x l then l else l ++ [x].

Record lt := { semi : Z -> Z; vertex : Z -> Z; label : Z -> Z; anc : Z -> Z; parent : Z -> Z; pred : Z -> list Z;
               bucket : Z -> list Z; dom : Z -> Z }.
Definition lt0 : lt := {| semi := fun _ => 0; vertex := fun _ => -1; label := fun _ => -1; anc := fun _ => -1; parent := fun _ => -1;
                          pred := fun _ => []; bucket := fun _ => []; dom := fun _ => -2 |}.
Definition set_semi s k v := {| semi := upd (semi s) k v; vertex := vertex s; label := label s; anc := anc s; parent := parent s; pred := pred s; bucket := bucket s; dom := dom s |}.
Definition set_vertex s k v := {| semi := semi s; vertex := upd (vertex s) k v; label := label s; anc := anc s; parent := parent s; pred := pred s; bucket := bucket s; dom := dom s |}.
Definition set_label s k v := {| semi := semi s; vertex := vertex s; label := upd (label s) k v; anc := anc s; parent := parent s; pred := pred s; bucket := bucket s; dom := dom s |}.
Definition set_anc s k v := {| semi := semi s; vertex := vertex s; label := label s; anc := upd (anc s) k v; parent := parent s; pred := pred s; bucket := bucket s; dom := dom s |}.
Definition set_parent s k v := {| semi := semi s; vertex := vertex s; label := label s; anc := anc s; parent := upd (parent s) k v; pred := pred s; bucket := bucket s; dom := dom s |}.
Definition set_pred s k v := {| semi := semi s; vertex := vertex s; label := label s; anc := anc s; parent := parent s; pred := upd (pred s) k v; bucket := bucket s; dom := dom s |}.
Definition set_bucket s k v := {| semi := semi s; vertex := vertex s; label := label s; anc := anc s; parent := parent s; pred := pred s; bucket := upd (bucket s) k v; dom := dom s |}.
Definition set_dom s k v := {| semi := semi s; vertex := vertex s; label := label s; anc := anc s; parent := parent s; pred := pred s; bucket := bucket s; dom := upd (dom s) k v |}.

(* _dfs(v, n) *)
Fixpoint dfs (fuel : nat) (g : graph) (v n : Z) (s : lt) : option (Z * lt) :=
  match fuel with
  | O => None
  | S f =>
      let n1 := n + 1 in
      let s1 := set_anc (set_label (set_vertex (set_semi s v n1) n1 v) v v) v (-1) in
      (fix loop (ws : list Z) (n : Z) (s : lt) : option (Z * lt) :=
         match ws with
         | [] => Some (n, s)
         | w :: r =>
             if semi s w =? 0 then
               match dfs f g w n (set_parent s w v) with
               | None => None
               | Some (n', s') => loop r n' (set_pred s' w (add_set (pred s' w) v))
               end
             else loop r n (set_pred s w (add_set (pred s w) v))
         end) (sucs g v) n1 s1
  end.

(* _compress(v) *)
Fixpoint compress (fuel : nat) (s : lt) (v : Z) : option lt :=
  match fuel with
  | O => None
  | S f =>
      let u := anc s v in
      if anc s u =? -1 then Some s else
      match compress f s u with
      | None => None
      | Some s1 =>
          let s2 := if semi s1 (label s1 u) <? semi s1 (label s1 v) then set_label s1 v (label s1 u) else s1 in
          Some (set_anc s2 v (anc s2 u))
      end
  end.
(* _eval(v) *)
Definition eval (fuel : nat) (s : lt) (v : Z) : option (Z * lt) :=
  if anc s v =? -1 then Some (v, s) else
  match compress fuel s v with None => None | Some s1 => Some (label s1 v, s1) end.

(* step 2: for v in pred[w]: u = _eval(v); y = semi[w] = min(semi[w], semi[u]) *)
Fixpoint step2 (fuel : nat) (s : lt) (w : Z) (vs : list Z) : option lt :=
  match vs with
  | [] => Some s
  | v :: r =>
      match eval fuel s v with
      | None => None
      | Some (u, s1) => step2 fuel (set_semi s1 w (Z.min (semi s1 w) (semi s1 u))) w r
      end
  end.
(* step 3: while bpw: v = bpw.pop(); u = _eval(v); dom[v] = u if semi[u] < semi[v] else pw *)
Fixpoint step3 (fuel : nat) (s : lt) (pw : Z) (vs : list Z) : option lt :=
  match vs with
  | [] => Some s
  | v :: r =>
      match eval fuel s v with
      | None => None
      | Some (u, s1) => step3 fuel (set_dom s1 v (if semi s1 u <? semi s1 v then u else pw)) pw r
      end
  end.
(* the body of "for i in range(n, 1, -1)" *)
(* ord: the order in which a set is iterated (pred[w], and the pops of the bucket) *)
Definition pass (ord : list Z -> list Z) (fuel : nat) (s : lt) (i : Z) : option lt :=
  let w := vertex s i in
  match step2 fuel s w (ord (pred s w)) with
  | None => None
  | Some s1 =>
      let y := semi s1 w in
      let s2 := set_bucket s1 (vertex s1 y) (add_set (bucket s1 (vertex s1 y)) w) in
      let pw := parent s2 w in
      let s3 := set_anc s2 w pw in
      match step3 fuel s3 pw (ord (bucket s3 pw)) with
      | None => None
      | Some s4 => Some (set_bucket s4 pw [])
      end
  end.
Fixpoint passes (ord : list Z -> list Z) (fuel : nat) (s : lt) (is : list Z) : option lt :=
  match is with
  | [] => Some s
  | i :: r => match pass ord fuel s i with None => None | Some s1 => passes ord fuel s1 r end
  end.
(* step 4 *)
Definition step4 (s : lt) (i : Z) : lt :=
  let w := vertex s i in
  let dw := dom s w in
  if dw =? vertex s (semi s w) then s else set_dom s w (dom s dw).
(* i = 2 .. n *)
Definition upto (n : Z) : list Z := map (fun k => Z.of_nat k) (seq 2 (Z.to_nat n - 1)).

Definition dom_lt_ord (ord : list Z -> list Z) (g : graph) (entry : Z) : option (Z * lt) :=
  let fuel := S (length g) in
  match dfs fuel g entry 0 lt0 with
  | None => None
  | Some (n, s) =>
      match passes ord fuel s (rev (upto n)) with
      | None => None
      | Some s1 => Some (n, set_dom (fold_left step4 (upto n) s1) entry (-1))
      end
  end.

Definition dom_lt := dom_lt_ord (fun l => l).

(* the dictionary dom_lt returns: (node, immediate dominator) for the numbered nodes in the order of their numbers *)
Definition lt_table (g : graph) (entry : Z) : option (list (Z * option Z)) :=
  match dom_lt g entry with
  | None => None
  | Some (n, s) => Some (map (fun i => let v := vertex s i in (v, if dom s v =? -1 then None else Some (dom s v))) (map Z.of_nat (seq 1 (Z.to_nat n))))
  end.

(* for node 0..n-1 the immediate dominator, -1 for the entry, -2 for an unreachable node (as obs_idom) *)
Definition lt_row_ord (ord : list Z -> list Z) (g : graph) (entry : Z) : option (list Z) :=
  match dom_lt_ord ord g entry with
  | None => None
  | Some (_, s) => Some (map (fun v => dom s v) (map Z.of_nat (seq 0 (length g))))
  end.
Definition lt_row := lt_row_ord (fun l => l).
Definition obs_lt (x : graph * Z) : val :=
  match lt_row (fst x) (snd x) with None => VErr E_OutOfFuel | Some l => vlistZ l end.
Definition obs_both (x : graph * Z) : val := VList [obs_idom x; obs_lt x].

Example lt_example : obs_lt ([[1; 2]; [2; 1]; [1; 3]; [3]; [0]], 0) = vlistZ [-1; 0; 0; 2; -2].
Proof. vm_compute. reflexivity. Qed.
