(* C26 - documents with attributes and namespaces, end to end: every element tree whose names are XML names as they stand,
   with any attributes (any namespace, any typed value) and any namespace declarations around the root, written as header,
   string pool and chunks, is parsed to exactly that tree *)
From Coq Require Import ZArith List Bool Lia ZifyBool.
Require Import V.Lib.Val V.Lib.Result V.Axml.PoolModel V.Axml.PoolProofs V.Axml.FormatValueModel V.Axml.AxmlModel V.Axml.AxmlProofs V.Axml.AxmlChunks
               V.Axml.AxmlDocument V.Misc.TermModel.
Import ListNotations.
Open Scope Z_scope.

Inductive atree := ANode (ns name : Z) (attrs : list attr) (text tail : Z) (kids : list atree).
Definition atail (t : atree) : Z := match t with ANode _ _ _ _ tl _ => tl end.
Fixpoint aitems (t : atree) : list item :=
  match t with
  | ANode ns n ats tx _ kids =>
      IStart 0 NONE ns n ats :: IText 0 NONE tx 0 0 :: flat_map (fun k => aitems k ++ [IText 0 NONE (atail k) 0 0]) kids ++ [IEnd 0 NONE ns n]
  end.
Fixpoint atree_ind' (P : atree -> Prop) (H : forall ns n ats tx tl kids, Forall P kids -> P (ANode ns n ats tx tl kids)) (t : atree) : P t :=
  match t with
  | ANode ns n ats tx tl kids =>
      H ns n ats tx tl kids ((fix go (l : list atree) : Forall P l := match l with [] => Forall_nil P | k :: r => Forall_cons k (atree_ind' P H k) (go r) end) kids)
  end.

Section Attrs.
Variables (utf8_flag : bool) (ss : list str) (padding : list Z) (sysattr : list (Z * str)).
Hypothesis Hfits : Forall (fits utf8_flag) ss.
Hypothesis Hcount : Z.of_nat (length ss) < NONE.
Variable res : list Z.                        (* the resource map: resource ids of the first strings of the pool *)
Let p := pool_of utf8_flag ss padding.
Notation sat := (str_at ss).

Lemma gs_total i : gs p i = Ok (sat i).
Proof. exact (gs_str_at utf8_flag ss padding Hfits i). Qed.

Fixpoint nsmap_of (l : list (Z * Z)) (m : list (str * str)) : list (str * str) :=
  match l with
  | [] => m
  | (a, b) :: r => nsmap_of r (match sat a, sat b with [], _ | _, [] => m | _, _ => put (sat a) (strip (sat b)) m end)
  end.
Lemma build_nsmap_total : forall l m, build_nsmap p l m = Ok (nsmap_of l m).
Proof. induction l as [|[a b] r IH]; intros m; cbn [build_nsmap nsmap_of]; [reflexivity|]. rewrite !gs_total. cbn [bind]. apply IH. Qed.

Lemma starts_with_app : forall pre s, starts_with pre s = true -> exists r, s = pre ++ r.
Proof.
  induction pre as [|a pre IH]; intros s H; [now exists s|]. destruct s as [|b s]; [discriminate|]. cbn [starts_with] in H.
  apply andb_true_iff in H as [E H]. apply Z.eqb_eq in E as ->. destruct (IH s H) as [r ->]. now exists r.
Qed.
(* the prefix holds a colon, which is no name character *)
Lemma starts_with_android_colon s : forallb name_char s = true -> starts_with S_android_colon s = false.
Proof.
  intros H. destruct (starts_with S_android_colon s) eqn:E; [|reflexivity]. apply starts_with_app in E as [r ->].
  rewrite forallb_app in H. discriminate H.
Qed.
Lemma fix_name_plain_any nsmap pre s : plain_name s -> fix_name nsmap pre s = Ok (pre, s).
Proof.
  destruct s as [|c r]; [contradiction|]. intros (H1 & H2 & H3). unfold fix_name. rewrite H3, <- negb_orb, H1. cbn [negb].
  rewrite (split_colon_none _ H2), (starts_with_android_colon _ H2).
  destruct pre as [|p0 pr]; [destruct (assoc_str S_android nsmap)|]; cbv iota beta; rewrite (map_if_id H2); reflexivity.
Qed.

(* attributes: the key is {namespace}name, the value the formatted value of its type and data (C27; strings through the
   pool) with characters XML cannot hold replaced *)
Definition attr_text (a : attr) : result str :=
  do v <- format_value (fun _ => if a_type a =? 3 then sat (a_raw a) else []) (a_type a) (a_data a); Ok (fix_value v).
Definition attr_text_or (a : attr) : str := match attr_text a with Ok v => v | Err _ => [] end.
(* the name: the system attribute name of the resource id when the resource map covers the name and the table knows the id
   (its underscores as colons), else the string of the pool *)
Definition name_of (a : attr) : str :=
  match PoolModel.nthz res (a_name a) with
  | Some id => match assoc_z id sysattr with Some nm => map (fun c => if c =? 95 then 58 else c) nm | None => sat (a_name a) end
  | None => sat (a_name a)
  end.
Definition attr_key (a : attr) : str := print_ns (sat (a_ns a)) ++ name_of a.
Definition wf_pattr (a : attr) : Prop := wf_attr a /\ plain_name (name_of a) /\ exists v, attr_text a = Ok v.
Definition attrs_of (l : list attr) (acc : list (str * str)) : list (str * str) :=
  fold_left (fun m a => put (attr_key a) (attr_text_or a) m) l acc.

Lemma attr_value_total a : attr_value p a = attr_text a.
Proof. unfold attr_value, attr_text. destruct (a_type a =? 3); [rewrite gs_total|]; reflexivity. Qed.
Lemma set_attr_put k v m : set_attr k v m = put k v m.
Proof. destruct k; reflexivity. Qed.
Lemma nthz_nil {A} i : @PoolModel.nthz A [] i = None.
Proof. unfold PoolModel.nthz. cbn [length]. now replace ((i <? 0) || (Z.of_nat 0 <=? i)) with true by lia. Qed.
Lemma name_match (r : str) (X : result str) : plain_name r -> match r with [] | [58] => X | _ => Ok r end = Ok r.
Proof.
  destruct r as [|c r]; [contradiction|]. intros (H1 & _ & _).
  (* the match on 58 is a match on the binary digits of c; at c = 58 itself H1 says that ':' is a letter or '_' *)
  destruct c as [|q|q]; try reflexivity. do 6 (destruct q as [q|q|]; try reflexivity). discriminate H1.
Qed.
Lemma attr_name_res a : plain_name (name_of a) -> attr_name p sysattr res a = Ok (name_of a).
Proof.
  intros Hp. unfold attr_name. rewrite gs_total. cbn [bind]. unfold name_of in *.
  destruct (PoolModel.nthz res (a_name a)) as [id|]; [destruct (assoc_z id sysattr) as [nm|]|]; apply name_match; exact Hp.
Qed.

Lemma build_attrs_total nsmap : forall l acc, Forall wf_pattr l -> build_attrs p sysattr res nsmap l acc = Ok (attrs_of l acc).
Proof.
  induction l as [|a l IH]; intros acc Hw; [reflexivity|]. apply Forall_cons_iff in Hw as [(Wa & Hp & v & Hv) Wl].
  cbn [build_attrs]. unfold attr_ns. rewrite (gs_opt utf8_flag ss padding Hfits Hcount). cbn [bind]. rewrite (attr_name_res a Hp). cbn [bind].
  rewrite (fix_name_plain_any nsmap (print_ns (sat (a_ns a))) _ Hp). cbn [bind]. rewrite attr_value_total, Hv. cbn [bind].
  rewrite set_attr_put, (IH _ Wl). unfold attrs_of. cbn [fold_left]. unfold attr_key, attr_text_or. now rewrite Hv.
Qed.

Variable nss : list (Z * Z).                  (* the namespaces declared around the root element *)
Fixpoint atree_of (t : atree) : xml :=
  match t with
  | ANode ns n ats tx tl kids => El (print_ns (sat ns) ++ sat n) (nsmap_of nss []) (attrs_of ats []) (sat tx) (map atree_of kids) (sat tl)
  end.
Fixpoint wf_atree (t : atree) : Prop :=
  match t with
  | ANode ns n ats tx tl kids =>
      fits32 ns /\ 0 <= n < Z.of_nat (length ss) /\ plain_name (sat n) /\ Forall wf_pattr ats /\ Z.of_nat (length ats) < 65536 /\
      16 + PoolModel.len (start_body ns n ats) < 4294967296 /\ text_index ss tx /\ text_index ss tl /\
      (fix all (l : list atree) : Prop := match l with [] => True | k :: r => wf_atree k /\ all r end) kids
  end.

Lemma resolve_start_attrs ns n ats : 0 <= n < Z.of_nat (length ss) -> plain_name (sat n) -> Forall wf_pattr ats ->
  resolve p sysattr res (EStart ns n ats NONE nss) false = Ok (TStart (print_ns (sat ns) ++ sat n) (nsmap_of nss []) (attrs_of ats [])).
Proof.
  intros Hn Hp Ha. cbn [resolve]. rewrite (gs_opt utf8_flag ss padding Hfits Hcount). cbn [bind]. destruct (sat n) as [|c r] eqn:E; [contradiction|].
  rewrite Z.eqb_refl. cbn [negb]. rewrite (gs_opt utf8_flag ss padding Hfits Hcount). cbn [bind]. rewrite build_nsmap_total. cbn [bind].
  rewrite (fix_name_plain_any _ _ (c :: r) Hp). cbn [bind]. rewrite (build_attrs_total _ ats [] Ha). reflexivity.
Qed.
Lemma atail_of t : tail_of (atree_of t) = sat (atail t).  Proof. destruct t. reflexivity. Qed.
Lemma wf_atree_tail k : wf_atree k -> text_index ss (atail k).
Proof. destruct k. cbn [wf_atree atail]. tauto. Qed.
Lemma ev_only_aitems t : ev_only (aitems t).
Proof.
  induction t as [ns n ats tx tl kids IH] using atree_ind'. cbn [aitems]. do 2 (constructor; [exact I|]). apply Forall_app. split; [|repeat constructor].
  apply Forall_flat_map. eapply Forall_impl; [|exact IH]. intros k Hk. apply Forall_app. split; [exact Hk | repeat constructor].
Qed.

Lemma attrs_resolved : forall t, wf_atree t ->
  Forall2 (fun er te => resolve p sysattr (snd er) (fst er) false = Ok te) (events (aitems t) nss res) (flatten (atree_of t)).
Proof.
  induction t as [ns n ats tx tl kids IH] using atree_ind'. intros (Hns & Hn & Hp & Ha & _ & _ & Htx & Htl & Hk). cbn [aitems events atree_of flatten].
  pose proof (resolve_text_index utf8_flag ss padding sysattr Hfits Hcount res) as Rt.
  constructor; [exact (resolve_start_attrs ns n ats Hn Hp Ha)|]. constructor; [exact (Rt tx Htx)|].
  induction kids as [|k kids IHk]; cbn [flat_map map app events].
  - constructor; [exact (resolve_end_plain utf8_flag ss padding sysattr Hfits Hcount res ns n Hn Hp) | constructor].
  - apply Forall_cons_iff in IH as [Pk Pr]. destruct Hk as [Wk Wr]. rewrite <- !app_assoc, (events_app_ev (ev_only_aitems k)).
    apply Forall2_app; [exact (Pk Wk)|]. constructor; [|exact (IHk Pr Wr)].
    cbn [fst snd]. rewrite atail_of. apply Rt, wf_atree_tail, Wk.
Qed.
Lemma wf_aitems : forall t, wf_atree t -> Forall wf_item (aitems t).
Proof.
  induction t as [ns n ats tx tl kids IH] using atree_ind'. intros (Hns & Hn & Hp & Ha & Hc & Hb & Htx & Htl & Hk).
  assert (F0 : fits32 0) by (unfold fits32; lia). assert (FN : fits32 NONE) by (unfold fits32, NONE; lia).
  assert (Fn : fits32 n) by (unfold fits32, NONE in *; lia).
  assert (Wats : Forall wf_attr ats). { eapply Forall_impl; [|exact Ha]. intros a (W & _). exact W. }
  pose proof (wf_text ss Hcount) as Wt.
  cbn [aitems]. constructor; [cbn [wf_item]; tauto|]. constructor; [exact (Wt tx Htx)|].
  apply Forall_app. split; [|constructor; [cbn [wf_item]; tauto | constructor]].
  induction kids as [|k kids IHk]; [constructor|]. apply Forall_cons_iff in IH as [Pk Pr]. destruct Hk as [Wk Wr]. cbn [flat_map].
  rewrite !Forall_app. repeat split; [exact (Pk Wk) | constructor; [apply Wt, wf_atree_tail, Wk | constructor] | exact (IHk Pr Wr)].
Qed.
End Attrs.

Definition ns_starts (decls : list (Z * Z)) : list item := map (fun d => INsStart 0 NONE (fst d) (snd d)) decls.
Definition ns_ends (decls : list (Z * Z)) : list item := map (fun d => INsEnd 0 NONE (fst d) (snd d)) (rev decls).
Definition adoc_items (decls : list (Z * Z)) (t : atree) : list item := ns_starts decls ++ aitems t ++ ns_ends decls.
Lemma events_ns_starts : forall decls X ns res, events (ns_starts decls ++ X) ns res = events X (ns ++ decls) res.
Proof.
  induction decls as [|[a b] r IH]; intros X ns res; cbn [ns_starts map app events fst snd]; [now rewrite app_nil_r|].
  fold (ns_starts r). rewrite IH. now rewrite <- app_assoc.
Qed.
Lemma events_ns_ends_nil : forall l ns res, events (map (fun d => INsEnd 0 NONE (fst d) (snd d)) l) ns res = [].
Proof. induction l as [|[a b] r IH]; intros ns res; cbn [map events fst snd]; [reflexivity | apply IH]. Qed.
Definition wf_decl (d : Z * Z) : Prop := fits32 (fst d) /\ fits32 (snd d).

Definition wf_res (ids : list Z) : Prop := Forall (fun x => 0 <= x < 4294967296) ids /\ 8 + 4 * Z.of_nat (length ids) < 4294967296.

(* the tree between its namespace declarations, behind any chunks that deliver no event, change no namespace and leave the
   resource map res *)
Lemma adoc_round_trip (utf8_flag : bool) ss padding sysattr front res decls t :
  Forall (fits utf8_flag) ss -> Z.of_nat (length ss) < NONE -> Forall wf_item front -> (forall X, events (front ++ X) [] [] = events X [] res) ->
  Forall wf_decl decls -> wf_atree ss sysattr res t -> atail t = NONE ->
  28 + 4 * Z.of_nat (length ss) + PoolModel.len (concat (map (if utf8_flag then entry8 else entry16) ss)) < 4294967296 ->
  PoolModel.len (doc_bytes utf8_flag ss padding (front ++ adoc_items decls t)) < 4294967296 ->
  parse_axml sysattr (doc_bytes utf8_flag ss padding (front ++ adoc_items decls t)) = Ok (Some (atree_of ss sysattr res decls t)).
Proof.
  intros Hf Hc Hr He Hd Hw Ht Hp Hl.
  assert (F0 : fits32 0) by (unfold fits32; lia). assert (FN : fits32 NONE) by (unfold fits32, NONE; lia).
  apply document_is_parsed; [|exact Hp | exact Hl | rewrite atail_of, Ht; exact (str_at_none ss Hc)|].
  - apply Forall_app. split; [exact Hr|]. unfold adoc_items, ns_starts, ns_ends. rewrite !Forall_app, !Forall_map. split; [|split].
    + eapply Forall_impl; [|exact Hd]. intros d [H1 H2]. cbn [wf_item]. tauto.
    + eapply wf_aitems; eassumption.
    + apply Forall_rev. eapply Forall_impl; [|exact Hd]. intros d [H1 H2]. cbn [wf_item]. tauto.
  - unfold adoc_items, ns_ends. rewrite He, events_ns_starts, (events_app_ev (ev_only_aitems t)), events_ns_ends_nil, app_nil_r.
    eapply attrs_resolved; eassumption.
Qed.

(* with a resource map in front (as aapt writes manifests): the names of the attributes it covers come from the system
   attribute table *)
Theorem manifest_document_round_trip (utf8_flag : bool) ss padding sysattr ids decls t :
  Forall (fits utf8_flag) ss -> Z.of_nat (length ss) < NONE -> wf_res ids -> Forall wf_decl decls ->
  wf_atree ss sysattr ids t -> atail t = NONE ->
  28 + 4 * Z.of_nat (length ss) + PoolModel.len (concat (map (if utf8_flag then entry8 else entry16) ss)) < 4294967296 ->
  PoolModel.len (doc_bytes utf8_flag ss padding (IResMap ids :: adoc_items decls t)) < 4294967296 ->
  parse_axml sysattr (doc_bytes utf8_flag ss padding (IResMap ids :: adoc_items decls t)) = Ok (Some (atree_of ss sysattr ids decls t)).
Proof. intros Hf Hc Hr. exact (adoc_round_trip utf8_flag ss padding sysattr [IResMap ids] ids decls t Hf Hc (Forall_cons (IResMap ids) Hr (Forall_nil _)) (fun X => eq_refl)). Qed.
Print Assumptions manifest_document_round_trip.

Theorem attribute_document_round_trip (utf8_flag : bool) ss padding sysattr decls t :
  Forall (fits utf8_flag) ss -> Z.of_nat (length ss) < NONE -> Forall wf_decl decls ->
  wf_atree ss sysattr [] t -> atail t = NONE ->
  28 + 4 * Z.of_nat (length ss) + PoolModel.len (concat (map (if utf8_flag then entry8 else entry16) ss)) < 4294967296 ->
  PoolModel.len (doc_bytes utf8_flag ss padding (adoc_items decls t)) < 4294967296 ->
  parse_axml sysattr (doc_bytes utf8_flag ss padding (adoc_items decls t)) = Ok (Some (atree_of ss sysattr [] decls t)).
Proof. intros Hf Hc. exact (adoc_round_trip utf8_flag ss padding sysattr [] [] decls t Hf Hc (Forall_nil _) (fun X => eq_refl)). Qed.
Print Assumptions attribute_document_round_trip.

(* <manifest xmlns:android="http://a/res" package="com.x" android:versionCode="7"><application android:name="com.x"/></manifest>
   with a resource map for the first two strings; the name string of versionCode is empty in the pool (stripped), the
   name comes from the system attribute table *)
Definition ax_ss : list str := [[]; [110; 97; 109; 101]; [97; 110; 100; 114; 111; 105; 100]; [104; 116; 116; 112; 58; 47; 47; 97; 47; 114; 101; 115]; [109; 97; 110; 105; 102; 101; 115; 116]; [112; 97; 99; 107; 97; 103; 101]; [99; 111; 109; 46; 120]; [97; 112; 112; 108; 105; 99; 97; 116; 105; 111; 110]].
Definition ax_ids : list Z := [16843291; 16842755].
Definition ax_sys : list (Z * str) := [(16843291, [118; 101; 114; 115; 105; 111; 110; 67; 111; 100; 101]); (16842755, [110; 97; 109; 101])].
Definition ax_tree : atree :=
  ANode NONE 4 [{| a_ns := NONE; a_name := 5; a_raw := 6; a_type := 3; a_data := 6 |};
                {| a_ns := 3; a_name := 0; a_raw := NONE; a_type := 16; a_data := 7 |}] NONE NONE
    [ANode NONE 7 [{| a_ns := 3; a_name := 1; a_raw := 6; a_type := 3; a_data := 6 |}] NONE NONE []].
Definition ax_xml : xml :=
  El [109; 97; 110; 105; 102; 101; 115; 116] [([97; 110; 100; 114; 111; 105; 100], [104; 116; 116; 112; 58; 47; 47; 97; 47; 114; 101; 115])] [([112; 97; 99; 107; 97; 103; 101], [99; 111; 109; 46; 120]); ([123; 104; 116; 116; 112; 58; 47; 47; 97; 47; 114; 101; 115; 125; 118; 101; 114; 115; 105; 111; 110; 67; 111; 100; 101], [55])] []
     [El [97; 112; 112; 108; 105; 99; 97; 116; 105; 111; 110] [([97; 110; 100; 114; 111; 105; 100], [104; 116; 116; 112; 58; 47; 47; 97; 47; 114; 101; 115])] [([123; 104; 116; 116; 112; 58; 47; 47; 97; 47; 114; 101; 115; 125; 110; 97; 109; 101], [99; 111; 109; 46; 120])] [] [] []] [].
Example manifest_example :
  wf_atree ax_ss ax_sys ax_ids ax_tree /\ atree_of ax_ss ax_sys ax_ids [(2, 3)] ax_tree = ax_xml /\
  parse_axml ax_sys (doc_bytes true ax_ss [] (IResMap ax_ids :: adoc_items [(2, 3)] ax_tree)) = Ok (Some ax_xml).
Proof.
  assert (F : Forall (fits true) ax_ss).
  { unfold ax_ss. repeat constructor; unfold valid_cp; try lia; vm_compute; reflexivity. }
  assert (W : wf_atree ax_ss ax_sys ax_ids ax_tree).
  { cbn [wf_atree ax_tree]. unfold wf_pattr, wf_attr, fits32, text_index, plain_name, NONE. cbn [a_ns a_name a_raw a_type a_data].
    repeat match goal with
           | |- _ /\ _ => split
           | |- Forall _ _ => constructor
           | |- exists v, _ = Ok v => eexists; vm_compute; reflexivity
           | |- True => exact I
           | |- _ \/ _ => left; reflexivity
           end; try lia; try (vm_compute; reflexivity); try (vm_compute; lia); try (vm_compute; intuition congruence). }
  assert (E : atree_of ax_ss ax_sys ax_ids [(2, 3)] ax_tree = ax_xml) by (vm_compute; reflexivity).
  split; [exact W|]. split; [exact E|]. rewrite <- E.
  apply manifest_document_round_trip; [exact F | vm_compute; reflexivity | split; [repeat constructor; lia | cbn; lia] | repeat constructor; unfold fits32; cbn; lia
                                     | exact W | reflexivity | vm_compute; reflexivity | vm_compute; reflexivity].
Qed.
