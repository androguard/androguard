(* C28 - a whole RES_TABLE_TYPE chunk: header, configuration, dense offset array, entry records of the three kinds laid
   out one after the other - written anywhere in a file - is read back as exactly its entries with their resource ids *)
From Coq Require Import ZArith List Bool Lia ZifyBool.
Require Import V.Lib.Val V.Lib.Result V.Lib.Struct V.Axml.PoolModel V.Axml.PoolProofs V.Axml.ArscTypeModel V.Axml.ArscTypeProofs V.Axml.ArscComplex.
Import ListNotations.
Open Scope Z_scope.

Inductive erec :=
| RPlain (flags index ty data : Z)
| RCompact (key ty data : Z)
| RComplex (size flags index parent : Z) (items : list item).
Definition erec_bytes (r : erec) : list Z :=
  match r with
  | RPlain flags index ty data => b16 8 ++ b16 flags ++ b32 index ++ value_bytes ty data
  | RCompact key ty data => b16 key ++ b16 (8 + 256 * ty) ++ b32 data
  | RComplex size flags index parent items => b16 size ++ b16 flags ++ b32 index ++ b32 parent ++ b32 (Z.of_nat (length items)) ++ flat_map item_bytes items
  end.
Definition erec_entry (r : erec) (rid : Z) : entry :=
  match r with
  | RPlain flags index ty data => {| e_id := rid; e_size := 8; e_flags := flags; e_index := index; e_payload := Plain ty data |}
  | RCompact key ty data => {| e_id := rid; e_size := key; e_flags := 8 + 256 * ty; e_index := data; e_payload := Compact key data ty |}
  | RComplex size flags index parent items =>
      {| e_id := rid; e_size := size; e_flags := flags; e_index := index; e_payload := Complex parent (Z.of_nat (length items)) items |}
  end.
Definition wf_erec (r : erec) : Prop :=
  match r with
  | RPlain flags index ty data => 0 <= flags < 65536 /\ Z.land flags 1 = 0 /\ Z.land flags 8 = 0 /\ 0 <= index < 4294967296 /\ 0 <= data < 4294967296
  | RCompact key ty data => 0 <= key < 65536 /\ 0 <= ty < 256 /\ 0 <= data < 4294967296
  | RComplex size flags index parent items =>
      0 <= size < 65536 /\ 0 <= flags < 65536 /\ Z.land flags 1 = 1 /\ 0 <= index < 4294967296 /\ 0 <= parent < 4294967296 /\
      Forall wf_item items /\ Z.of_nat (length items) < 4294967296
  end.
Lemma len_erec_complex size flags index parent items : len (erec_bytes (RComplex size flags index parent items)) = 16 + 12 * Z.of_nat (length items).
Proof. cbn [erec_bytes]. autorewrite with len. lia. Qed.
Theorem erec_exact pre r rest endp rid : wf_erec r -> len pre + len (erec_bytes r) <= endp ->
  parse_entry (pre ++ erec_bytes r ++ rest) (len pre) endp rid = Ok (erec_entry r rid).
Proof.
  destruct r as [flags index ty data|key ty data|size flags index parent items]; cbn [wf_erec erec_bytes erec_entry]; intros Hw He; rewrite <- !app_assoc.
  - now apply plain_entry_exact.
  - now apply compact_entry_exact.
  - autorewrite with len in He. apply complex_entry_exact; try tauto. lia.
Qed.
Lemma erec_at {buf p r rest endp rid} : tail_at buf p (erec_bytes r ++ rest) -> wf_erec r -> p + len (erec_bytes r) <= endp ->
  parse_entry buf p endp rid = Ok (erec_entry r rid).
Proof. intros (pre & -> & <-). apply erec_exact. Qed.

(* per resource index: the record of the entry, or no entry in this configuration; the records lie one after the other *)
Definition slot_bytes (s : option erec) : list Z := match s with Some r => erec_bytes r | None => [] end.
Definition body_bytes (slots : list (option erec)) : list Z := flat_map slot_bytes slots.
Fixpoint slot_offsets (at0 : Z) (slots : list (option erec)) : list (option Z) :=
  match slots with
  | [] => []
  | None :: r => None :: slot_offsets at0 r
  | Some e :: r => Some at0 :: slot_offsets (at0 + len (erec_bytes e)) r
  end.
Fixpoint expected (base i : Z) (slots : list (option erec)) : list entry :=
  match slots with
  | [] => []
  | None :: r => expected base (i + 1) r
  | Some e :: r => erec_entry e (base + i) :: expected base (i + 1) r
  end.
Definition wf_slot (s : option erec) : Prop := match s with Some r => wf_erec r | None => True end.
Lemma slot_offsets_length : forall slots a, length (slot_offsets a slots) = length slots.
Proof. induction slots as [|[e|] r IH]; intros a; cbn [slot_offsets length]; [reflexivity | now rewrite IH | now rewrite IH]. Qed.
Lemma len_body_cons e r : len (body_bytes (Some e :: r)) = len (erec_bytes e) + len (body_bytes r).
Proof. apply len_app. Qed.
Lemma slot_offsets_ok32 : forall slots a, 0 <= a -> a + len (body_bytes slots) < 4294967295 -> Forall ok32 (slot_offsets a slots).
Proof.
  induction slots as [|[e|] r IH]; intros a Ha Hb; cbn [slot_offsets]; constructor; try exact I; try now apply IH.
  all: rewrite len_body_cons in Hb; pose proof (len_nonneg (erec_bytes e)); pose proof (len_nonneg (body_bytes r)).
  - cbn [ok32]. lia.
  - apply IH; lia.
Qed.

Lemma entries_at buf p0 endp base : forall slots a rest i, Forall wf_slot slots ->
  tail_at buf (p0 + a) (body_bytes slots ++ rest) -> p0 + a + len (body_bytes slots) <= endp ->
  map_res (fun q => parse_entry buf (p0 + fst q) endp (snd q)) (present base i (slot_offsets a slots)) = Ok (expected base i slots).
Proof.
  induction slots as [|[e|] r IH]; intros a rest i Hw T He; [reflexivity | | apply Forall_cons_iff in Hw as [_ Wr]; exact (IH _ _ _ Wr T He)].
  apply Forall_cons_iff in Hw as [We Wr]. rewrite len_body_cons in He. pose proof (len_nonneg (body_bytes r)).
  unfold body_bytes in T. cbn [flat_map slot_bytes] in T. rewrite <- app_assoc in T.
  cbn [slot_offsets present expected map_res fst snd]. rewrite (erec_at T We) by lia. cbn [bind].
  apply tail_at_app in T. rewrite <- Z.add_assoc in T. now rewrite (IH _ _ _ Wr T) by lia.
Qed.
Arguments entries_at {buf p0 endp base slots a rest i}.
Lemma entries_at_offsets : forall slots pre done rest endp base i,
  Forall wf_slot slots -> len pre + len done + len (body_bytes slots) <= endp ->
  map_res (fun p => parse_entry (pre ++ done ++ body_bytes slots ++ rest) (len pre + fst p) endp (snd p))
          (present base i (slot_offsets (len done) slots)) = Ok (expected base i slots).
Proof.
  intros slots pre done rest endp base i Hw He. apply (entries_at (rest := rest)); [exact Hw | | exact He].
  rewrite app_assoc, <- len_app. apply tail_at_here.
Qed.

(* a ResTable_config of the current layout (52 bytes or more, as aapt2 writes: 64): its declared size is what is consumed *)
Lemma config_len_exact S tail rest : 52 <= S < 4294967296 -> len tail = S - 4 -> config_len (b32 S ++ tail ++ rest) = Ok S.
Proof.
  intros HS Ht. rewrite config_len_eq, u32_b32 by lia. cbn [bind]. rewrite !(proj2 (Z.leb_le _ S)) by lia. cbn [when].
  autorewrite with len. pose proof (len_nonneg rest). rewrite !strict_field_ok, !lenient_field_ok, strict_field_ok by lia. cbn [bind].
  f_equal. destruct (0 <? _) eqn:E; lia.
Qed.

Definition type_chunk_bytes (tid : Z) (cfg : list Z) (slots : list (option erec)) : list Z :=
  let count := Z.of_nat (length slots) in
  let hs := 20 + len cfg in
  let estart := hs + 4 * count in
  b16 513 ++ b16 hs ++ b32 (estart + len (body_bytes slots)) ++ [tid; 0] ++ b16 0 ++ b32 count ++ b32 estart ++
  cfg ++ flat_map enc32 (slot_offsets 0 slots) ++ body_bytes slots.
Definition type_chunk_size (cfg : list Z) (slots : list (option erec)) : Z :=
  20 + len cfg + 4 * Z.of_nat (length slots) + len (body_bytes slots).
Lemma len_enc32s l : len (flat_map enc32 l) = 4 * Z.of_nat (length l).
Proof. now apply len_flat_map. Qed.
#[export] Hint Rewrite len_enc32s slot_offsets_length : len.
Lemma len_type_chunk tid cfg slots : len (type_chunk_bytes tid cfg slots) = type_chunk_size cfg slots.
Proof. unfold type_chunk_bytes, type_chunk_size. cbv zeta. autorewrite with len. lia. Qed.

Lemma map_res_ext {A B} (f g : A -> result B) l : (forall x, f x = g x) -> map_res f l = map_res g l.
Proof. intros H. induction l as [|x l IH]; [reflexivity|]. cbn [map_res]. now rewrite H, IH. Qed.

(* a type chunk at a position of a file, in any encoding of the offset array: whatever the size fields hs, sz, estart hold,
   as long as they add up, and whatever the array oa is, as long as it is read back as the offsets of the slots *)
Lemma type_chunk_at buf start pkg tid fl cnt S tail oa slots rest hs sz estart :
  tail_at buf start (b16 513 ++ b16 hs ++ b32 sz ++ [tid; fl] ++ b16 0 ++ b32 cnt ++ b32 estart ++ b32 S ++ tail ++ oa ++ body_bytes slots ++ rest) ->
  52 <= S < 65516 -> len tail = S - 4 -> Forall wf_slot slots -> 0 <= cnt < 4294967296 ->
  hs = 20 + S -> estart = hs + len oa -> sz = estart + len (body_bytes slots) -> sz < 4294967295 ->
  (forall fuel rest', len oa <= Z.of_nat fuel ->
     read_offsets fuel fl 0 cnt (pkg * 16777216 + tid * 65536) (oa ++ rest') = Ok (present (pkg * 16777216 + tid * 65536) 0 (slot_offsets 0 slots))) ->
  parse_type_chunk buf start pkg =
  Ok {| t_id := tid; t_flags := fl; t_count := cnt; t_entries := expected (pkg * 16777216 + tid * 65536) 0 slots |}.
Proof.
  intros T HS Ht Hw Hc -> -> -> Hsz HOA. destruct (tail_at_len T) as [P0 _]. pose proof (len_nonneg (body_bytes slots)). pose proof (len_nonneg oa). pose proof (len_nonneg rest).
  unfold parse_type_chunk. rewrite (at_tail T eq_refl). read. cbn [app u8 bind]. read. rewrite config_len_exact by lia. cbn [bind].
  (* the offset array stands behind the nine fields of the header and the configuration, the records behind the array *)
  do 9 apply tail_at_app in T. destruct (tail_at_len T) as [_ Lb]. autorewrite with len in T, Lb.
  rewrite (at_tail T), HOA by (try fold (len buf); lia). cbn [bind].
  apply tail_at_app in T. apply tail_at_eq with (q := start + (20 + S + len oa) + 0) in T; [|lia].
  now rewrite (entries_at Hw T) by lia.
Qed.

Lemma dense_array slots base : len (body_bytes slots) < 4294967295 -> forall fuel rest, len (flat_map enc32 (slot_offsets 0 slots)) <= Z.of_nat fuel ->
  read_offsets fuel 0 0 (Z.of_nat (length slots)) base (flat_map enc32 (slot_offsets 0 slots) ++ rest) = Ok (present base 0 (slot_offsets 0 slots)).
Proof.
  intros Hb fuel rest Hf. autorewrite with len in Hf. rewrite <- (slot_offsets_length slots 0).
  apply (dense_offsets_exact _ fuel 0); [apply slot_offsets_ok32; lia | rewrite slot_offsets_length; lia].
Qed.
(* a type chunk anywhere in a file: read back as its id, count and exactly the entries of its slots, each with the resource id
   package << 24 | type << 16 | index *)
Theorem type_chunk_exact pre tid S tail slots rest pkg :
  52 <= S < 65516 -> len tail = S - 4 -> Forall wf_slot slots -> type_chunk_size (b32 S ++ tail) slots < 4294967295 ->
  parse_type_chunk (pre ++ type_chunk_bytes tid (b32 S ++ tail) slots ++ rest) (len pre) pkg =
  Ok {| t_id := tid; t_flags := 0; t_count := Z.of_nat (length slots); t_entries := expected (pkg * 16777216 + tid * 65536) 0 slots |}.
Proof.
  intros HS Ht Hw Hsz. unfold type_chunk_size in Hsz. autorewrite with len in Hsz. pose proof (len_nonneg (body_bytes slots)).
  unfold type_chunk_bytes. cbv zeta. rewrite <- !app_assoc. eapply type_chunk_at; [apply tail_at_here | try eassumption; autorewrite with len; lia .. | apply dense_array; lia].
Qed.

(* a chunk with a plain, a missing, a compact and a complex entry (one item), a 64-byte configuration, written after 3 bytes *)
Definition ex_slots : list (option erec) := [Some (RPlain 0 7 3 42); None; Some (RCompact 9 16 1000); Some (RComplex 16 1 11 0 [(16777216, (16, 5))])].
Definition ex_cfg_tail : list Z := repeat 0 60.
Example type_chunk_example :
  Forall wf_slot ex_slots /\
  parse_type_chunk ([1; 2; 3] ++ type_chunk_bytes 2 (b32 64 ++ ex_cfg_tail) ex_slots ++ [9; 9]) 3 127 =
  Ok {| t_id := 2; t_flags := 0; t_count := 4; t_entries := expected (127 * 16777216 + 2 * 65536) 0 ex_slots |} /\
  map e_id (expected (127 * 16777216 + 2 * 65536) 0 ex_slots) = [2130837504; 2130837506; 2130837507].
Proof.
  assert (W : Forall wf_slot ex_slots).
  { unfold ex_slots. repeat constructor; cbn; try lia. }
  split; [exact W|]. split; [|reflexivity].
  apply (type_chunk_exact [1; 2; 3] 2 64 ex_cfg_tail ex_slots [9; 9] 127); [lia | reflexivity | exact W | vm_compute; reflexivity].
Qed.
Print Assumptions type_chunk_exact.
