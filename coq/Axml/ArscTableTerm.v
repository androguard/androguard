(* C35 / C28 - the walk of ARSCParser.__init__ over a resource table as modelled (table header, chunks of the table, package
   headers and their string pools, chunks of the packages, type chunks with their offset arrays and entries) ends on every
   byte string: parse_table never runs out of its fuel, which is linear in the length of the input for each loop *)
From Coq Require Import ZArith List Bool Lia ZifyBool.
Require Import V.Lib.Val V.Lib.Result V.Lib.Reader V.Axml.PoolModel V.Axml.ArscTypeModel V.Axml.ArscTypeProofs V.Axml.ArscTableModel V.Misc.TermModel V.Misc.TermProofs V.Axml.AxmlTerm.
Import ListNotations.
Open Scope Z_scope.

Lemma u8_noo l : noo (u8 l).
Proof. unfold u8. repeat noo_step. Qed.
#[export] Hint Resolve u8_noo : noo.
Lemma res_value_noo l : noo (res_value l).
Proof. unfold res_value. repeat noo_step. Qed.
#[export] Hint Resolve res_value_noo : noo.
Lemma read_items_noo : forall fuel n pos endp l, noo (read_items fuel n pos endp l).
Proof. induction fuel as [|f IH]; intros n pos endp l; cbn [read_items]; repeat noo_step. Qed.
#[export] Hint Resolve read_items_noo : noo.
Lemma parse_entry_noo buf pos endp rid : noo (parse_entry buf pos endp rid).
Proof. unfold parse_entry. repeat noo_step. Qed.
Lemma read_offsets_noo : forall fuel flags i count base l, noo (read_offsets fuel flags i count base l).
Proof. induction fuel as [|f IH]; intros flags i count base l; cbn [read_offsets]; repeat noo_step. Qed.
Lemma map_res_noo {A B} (f : A -> result B) : (forall x, noo (f x)) -> forall l, noo (map_res f l).
Proof. intros H. induction l as [|x l IH]; cbn [map_res]; repeat noo_step. Qed.
Lemma strict_field_noo n st : noo st -> noo (strict_field n st).
Proof. intros H. unfold strict_field. repeat noo_step. Qed.
Lemma lenient_field_noo n st : noo st -> noo (lenient_field n st).
Proof. intros H. unfold lenient_field. repeat noo_step. Qed.
Lemma when_noo b f st : (forall s, noo s -> noo (f s)) -> noo st -> noo (when b f st).
Proof. intros Hf H. destruct b; cbn [when]; auto. Qed.
Lemma config_len_noo l : noo (config_len l).
Proof.
  rewrite config_len_eq. apply noo_bind; [apply pu32_noo|]. intros [size ?]. apply noo_bind; [|intros [c r]; apply noo_ok].
  (* twelve nested `when`s, each around one field reader *)
  auto 15 using when_noo, strict_field_noo, lenient_field_noo, noo_ok.
Qed.
Lemma parse_type_chunk_noo buf start pkg : noo (parse_type_chunk buf start pkg).
Proof.
  unfold parse_type_chunk.
  repeat noo_step; auto using config_len_noo, read_offsets_noo, map_res_noo, parse_entry_noo.
Qed.
Lemma pool_at_noo buf after size : noo (pool_at buf after size).  Proof. apply parse_pool_noo. Qed.

Lemma package_chunks_noo buf tpool pend pkgid : forall fuel pos acc, 0 <= pos -> need buf pos <= Z.of_nat fuel -> noo (package_chunks fuel buf tpool pos pend pkgid acc).
Proof.
  induction fuel as [|f IH]; intros pos acc H0 Hn; [unfold need in Hn; lia|]. cbn [package_chunks]. destruct (pend - 8 <? pos); [apply noo_ok|].
  apply header_then; [exact H0|]. intros ty hs sz after Fh Fs F2 F3.
  assert (Next : forall acc', noo (package_chunks f buf tpool (pos + sz) pend pkgid acc')) by (intros; apply IH; unfold need in *; lia).
  pose proof parse_type_chunk_noo. repeat noo_step.
Qed.
Definition nonneg (l : list Z) : Prop := Forall (fun b => 0 <= b) l.
Lemma nonneg_dropz : forall l n, nonneg l -> nonneg (PoolModel.dropz n l).
Proof. induction l as [|x l IH]; intros n H; cbn [PoolModel.dropz]; [constructor|]. destruct (n <=? 0); [exact H|]. inversion H; subst. now apply IH. Qed.
Lemma nonneg_at buf p : nonneg buf -> nonneg (at_ buf p).
Proof. intros H. unfold at_. destruct (p <? 0); [constructor | now apply nonneg_dropz]. Qed.
Lemma u32_nonneg l v r : nonneg l -> PoolModel.u32 l = Ok (v, r) -> 0 <= v /\ nonneg r.
Proof.
  intros H E. destruct l as [|a [|b [|c [|d l]]]]; try discriminate.
  assert (v = a + 256 * b + 65536 * c + 16777216 * d /\ r = l) as [-> ->] by (unfold PoolModel.u32 in E; split; congruence).
  apply Forall_cons_iff in H as [Ha H]. apply Forall_cons_iff in H as [Hb H]. apply Forall_cons_iff in H as [Hc H]. apply Forall_cons_iff in H as [Hd H]. cbv beta in *. split; [lia | exact H].
Qed.

Lemma table_chunks_noo buf hend pkgcount : nonneg buf -> forall fuel pos seen acc, 0 <= pos -> need buf pos <= Z.of_nat fuel -> noo (table_chunks fuel buf pos hend pkgcount seen acc).
Proof.
  intros Hb. induction fuel as [|f IH]; intros pos seen acc H0 Hn; [unfold need in Hn; lia|]. cbn [table_chunks]. destruct (hend - 8 <? pos); [apply noo_ok|].
  apply header_then; [exact H0|]. intros ty hs sz after Fh Fs F2 F3.
  assert (Next : forall seen' acc', noo (table_chunks f buf (pos + sz) hend pkgcount seen' acc')) by (intros; apply IH; unfold need in *; lia).
  destruct (hend <? pos + sz); [apply noo_ok|]. destruct (ty =? RES_STRING_POOL).
  { destruct seen; [apply Next|]. apply noo_bind; [apply pool_at_noo|]. intros; apply Next. }
  destruct (ty =? RES_TABLE_PACKAGE); [|apply Next].
  destruct (pkgcount <? Z.of_nat (length acc)); [discriminate|].
  (* the offsets of the two string pools are read from the file: they are not negative because no byte is *)
  pose proof (nonneg_at buf after Hb) as Nb.
  apply bind_noo_eq; [apply pu32_noo|]. intros [pid b1] E1. destruct (u32_nonneg _ _ _ Nb E1) as [_ Nb1].
  apply bind_noo_eq; [apply pu32_noo|]. intros [tstr b2] E2. destruct (u32_nonneg _ _ _ (nonneg_dropz b1 256 Nb1) E2) as [T0 Nb2].
  apply bind_noo_eq; [apply pu32_noo|]. intros [lpt b3] E3. destruct (u32_nonneg _ _ _ Nb2 E3) as [_ Nb3].
  apply bind_noo_eq; [apply pu32_noo|]. intros [kstr b4] E4. destruct (u32_nonneg _ _ _ Nb3 E4) as [K0 Nb4].
  apply noo_bind; [apply pu32_noo|]. intros [? ?].
  apply header_then; [lia|]. intros ? ? tsz tafter _ Ft _ _.
  apply noo_bind; [apply pool_at_noo|]. intros tpool.
  apply header_then; [lia|]. intros ? ? ksz kafter _ Fk _ _.
  apply noo_bind; [apply pool_at_noo|]. intros _.
  apply noo_bind; [apply package_chunks_noo; [lia | apply need_le_length; lia]|]. intros ts. apply Next.
Qed.
Theorem parse_table_ends buf : nonneg buf -> parse_table buf <> Err OutOfFuel.
Proof.
  intros Hb. change (noo (parse_table buf)). unfold parse_table. destruct (_ || _); [discriminate|].
  apply header_then; [reflexivity|]. intros ty hs sz after Fh Fs F2 F3.
  destruct (_ <? _); [discriminate|]. apply noo_bind; [apply pu32_noo|]. intros [pkgcount ?].
  apply table_chunks_noo; [exact Hb | lia | apply need_le_length; lia].
Qed.
