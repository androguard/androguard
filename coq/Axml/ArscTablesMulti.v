(* C28 - tables with any number of packages: one step of the walk consumes one package, wherever it stands *)
From Coq Require Import ZArith List Bool Lia ZifyBool.
Require Import V.Lib.Val V.Lib.Result V.Lib.Struct V.Axml.PoolModel V.Axml.PoolProofs V.Axml.ArscTypeModel V.Axml.ArscTypeProofs V.Axml.ArscComplex
               V.Axml.ArscTypeChunk V.Axml.ArscTypeChunkEnc V.Axml.ArscTableModel V.Axml.ArscTableProofs V.Misc.TermModel.
Import ListNotations.
Open Scope Z_scope.

Notation b16 := ArscTypeProofs.b16.
Notation b32 := ArscTypeProofs.b32.
Notation len := PoolModel.len.

Definition pkg_of (d : pkg_desc) : tpackage := {| pk_id := d_id d; pk_name := name_units (d_name d); pk_types := types_of (d_id d mod 256) (d_chunks d) |}.

Lemma package_step d pre rest fuel hend pkgcount seen acc :
  wf_pkg d -> len pre + pkg_size d <= hend -> hend < 4294967296 -> Z.of_nat (length acc) <= pkgcount ->
  table_chunks (S fuel) (pre ++ pkg_bytes d ++ rest) (len pre) hend pkgcount seen acc =
  table_chunks fuel (pre ++ pkg_bytes d ++ rest) (len pre + pkg_size d) hend pkgcount seen (add_package (pkg_of d) acc).
Proof. intros Hw He Hh Ha. apply (package_at (rest := rest)); [exact Hw | apply tail_at_here | assumption ..]. Qed.

Lemma add_package_length p acc : (length (add_package p acc) <= S (length acc))%nat.
Proof. induction acc as [|q r IH]; cbn [add_package length]; [lia|]. destruct (name_eqb (pk_name q) (pk_name p)); cbn [length]; lia. Qed.
Definition pkgs_bytes (ds : list pkg_desc) : list Z := flat_map pkg_bytes ds.
Definition collect (ds : list pkg_desc) (acc : list tpackage) : list tpackage := fold_left (fun a d => add_package (pkg_of d) a) ds acc.

Lemma packages_walk_at : forall ds buf p rest fuel pkgcount seen acc,
  Forall wf_pkg ds -> (length ds < fuel)%nat -> tail_at buf p (pkgs_bytes ds ++ rest) -> p + len (pkgs_bytes ds) < 4294967296 ->
  Z.of_nat (length acc) + Z.of_nat (length ds) <= pkgcount + 1 ->
  table_chunks fuel buf p (p + len (pkgs_bytes ds)) pkgcount seen acc = Ok (collect ds acc).
Proof.
  induction ds as [|d ds IH]; intros buf p rest fuel pkgcount seen acc Hw Hf T Hb Hc; (destruct fuel as [|f]; cbn [length] in Hf, Hc; [lia|]).
  - apply table_chunks_end. change (len (pkgs_bytes [])) with 0. lia.
  - apply Forall_cons_iff in Hw as [Wd Wr]. pose proof Wd as (_ & Hname & _). unfold pkgs_bytes in *. cbn [flat_map collect fold_left] in *.
    rewrite <- app_assoc in T. rewrite len_app, len_pkg_bytes in * by exact Hname. pose proof (len_nonneg (flat_map pkg_bytes ds)).
    rewrite (package_at Wd T) by lia. fold (pkg_of d). apply tail_at_app in T. rewrite len_pkg_bytes in T by exact Hname.
    rewrite Z.add_assoc in *. pose proof (add_package_length (pkg_of d) acc). apply (IH _ _ _ f _ _ _ Wr ltac:(lia) T); lia.
Qed.
(* the walk over any number of packages, one after the other; packages of one name are merged, as the code does *)
Lemma packages_walk : forall ds pre rest fuel pkgcount seen acc,
  Forall wf_pkg ds -> (length ds < fuel)%nat -> len pre + len (pkgs_bytes ds) < 4294967296 ->
  Z.of_nat (length acc) + Z.of_nat (length ds) <= pkgcount + 1 ->
  table_chunks fuel (pre ++ pkgs_bytes ds ++ rest) (len pre) (len pre + len (pkgs_bytes ds)) pkgcount seen acc = Ok (collect ds acc).
Proof. intros ds pre rest fuel pkgcount seen acc Hw Hf. apply packages_walk_at with (rest := rest); [exact Hw | exact Hf | apply tail_at_here]. Qed.

Lemma pkgs_count_le ds : Forall wf_pkg ds -> Z.of_nat (length ds) * 288 <= len (pkgs_bytes ds).
Proof.
  intros Hw. rewrite Z.mul_comm. apply len_flat_map_ge. eapply Forall_impl; [|exact Hw].
  intros d (_ & Hname & _). rewrite len_pkg_bytes by exact Hname. apply pkg_size_ge.
Qed.

Definition table_bytes_multi (mu : bool) (mss : list str) (mpad : list Z) (ds : list pkg_desc) : list Z :=
  hdr8 2 12 (12 + pool_size mu mss mpad + len (pkgs_bytes ds)) ++ b32 (Z.of_nat (length ds)) ++ pool_chunk mu mss mpad ++ pkgs_bytes ds.

Theorem tables_exact mu mss mpad ds :
  Forall wf_pkg ds -> pool_bound mu mss -> 12 + pool_size mu mss mpad + len (pkgs_bytes ds) < 4294967296 ->
  parse_table (table_bytes_multi mu mss mpad ds) = Ok (collect ds []).
Proof.
  intros Hw Hmb Htot. pose proof (pkgs_count_le ds Hw) as PC. pose proof (pool_size_ge mu mss mpad).
  destruct (table_start (table_bytes_multi mu mss mpad ds) mu mss mpad (Z.of_nat (length ds)) (pkgs_bytes ds) _ eq_refl Hmb ltac:(lia) eq_refl Htot) as [-> T].
  destruct (tail_at_len T) as [_ Lb]. rewrite <- (app_nil_r (pkgs_bytes ds)) in T.
  apply packages_walk_at with (rest := []); [exact Hw | unfold len in *; lia | exact T | lia | cbn [length]; lia].
Qed.
Print Assumptions tables_exact.

(* two packages of different names, and the same package twice (merged under one name) *)
Example tables_example :
  let d2 := {| d_id := 2; d_name := [99; 0] ++ repeat 0 254; d_tu := false; d_tss := [[116]]; d_tpad := []; d_ku := false; d_kss := []; d_kpad := [];
               d_last_type := 0; d_last_key := 0; d_chunks := [PType 1 64 (repeat 0 60) [Some (RCompact 0 16 5)]] |} in
  parse_table (table_bytes_multi true [] [] [ex_desc; d2]) = Ok [pkg_of ex_desc; pkg_of d2] /\
  map (fun p => length (pk_types p)) (collect [ex_desc; ex_desc] []) = [2%nat].
Proof. split; vm_compute; reflexivity. Qed.

Lemma wf_ptype_offset16 tpool tid cz tail slots :
  52 <= cz < 65516 -> len tail = cz - 4 -> Forall wf_slot slots -> len (body_bytes slots) < 4 * 65535 ->
  20 + cz + 2 * Z.of_nat (length slots) + len (body_bytes slots) < 4294967295 -> (exists s, get_string tpool (tid - 1) = Ok s) ->
  wf_pchunk tpool (PTypeG tid 2 (Z.of_nat (length slots)) cz tail (flat_map enc16 (slot_offsets 0 slots)) slots).
Proof.
  intros H1 H2 H3 H4 H5 H6. cbn [wf_pchunk]. pose proof (len_nonneg (body_bytes slots)).
  refine (conj H1 (conj H2 (conj H3 (conj _ (conj _ (conj (fun base => offset16_array slots base H4) H6)))))); autorewrite with len; lia.
Qed.
Lemma wf_ptype_sparse tpool tid cz tail slots :
  52 <= cz < 65516 -> len tail = cz - 4 -> Forall wf_slot slots -> len (body_bytes slots) < 4 * 65536 -> Z.of_nat (length slots) <= 65536 ->
  (exists s, get_string tpool (tid - 1) = Ok s) ->
  wf_pchunk tpool (PTypeG tid 1 (Z.of_nat (length (sparse_items 0 0 slots))) cz tail (flat_map enc_sparse (sparse_items 0 0 slots)) slots).
Proof.
  intros H1 H2 H3 H4 H5 H6. cbn [wf_pchunk]. pose proof (len_nonneg (body_bytes slots)). pose proof (sparse_items_length slots 0 0).
  refine (conj H1 (conj H2 (conj H3 (conj _ (conj _ (conj (fun base => sparse_array slots base H4 H5) H6)))))); autorewrite with len; lia.
Qed.

(* one package holding the same slots in the three encodings *)
Example encodings_table_example :
  let slots := [Some (RPlain 0 0 3 0); None; Some (RCompact 1 16 9)] in
  let d := {| d_id := 127; d_name := [97; 0] ++ repeat 0 254; d_tu := false; d_tss := [[116]]; d_tpad := []; d_ku := false; d_kss := [[107]; [108]]; d_kpad := [];
              d_last_type := 1; d_last_key := 2;
              d_chunks := [PSpec 1 [0; 0; 0]; PType 1 64 (repeat 0 60) slots;
                           PTypeG 1 2 3 64 (repeat 1 60) (flat_map enc16 (slot_offsets 0 slots)) slots;
                           PTypeG 1 1 2 64 (repeat 2 60) (flat_map enc_sparse (sparse_items 0 0 slots)) slots] |} in
  parse_table (table_bytes_multi false [] [] [d]) = Ok [pkg_of d] /\
  map (fun t => (t_flags t, map e_id (t_entries t))) (pk_types (pkg_of d)) =
    [(0, [2130771968; 2130771970]); (2, [2130771968; 2130771970]); (1, [2130771968; 2130771970])].
Proof. split; vm_compute; reflexivity. Qed.
