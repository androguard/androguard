(* C35 - the binary XML parser as modelled (AXMLParser's chunk loop, AXMLPrinter's event loop, the string pool) ends on
   every input: no byte string makes parse_axml run out of its fuel, which is linear in the length of the input *)
From Coq Require Import ZArith List Bool Lia ZifyBool.
Require Import V.Lib.Val V.Lib.Result V.Lib.Reader V.Axml.PoolModel V.Axml.FormatValueModel V.Axml.AxmlModel V.Misc.TermModel V.Misc.TermProofs.
Import ListNotations.
Open Scope Z_scope.

Definition noo {A} (r : result A) : Prop := r <> Err OutOfFuel.
Lemma noo_ok {A} (x : A) : noo (Ok x).  Proof. discriminate. Qed.
Lemma noo_bind {A B} (a : result A) (f : A -> result B) : noo a -> (forall x, noo (f x)) -> noo (bind a f).
Proof. exact (bind_noo a f). Qed.
(* a function without fuel of its own: a result put together by bind and case analysis from results that are not OutOfFuel
   is not OutOfFuel; what is known of the functions it calls comes from the hint database *)
Create HintDb noo.
Ltac noo_step :=
  match goal with
  | |- noo (Ok _) => apply noo_ok
  | |- noo (Err ?e) => discriminate
  | |- noo (bind _ _) => apply noo_bind; [|intros ?]
  | |- noo (let '(_, _) := ?x in _) => destruct x
  | |- noo (if ?c then _ else _) => destruct c
  | |- noo (match ?x with _ => _ end) => destruct x
  | |- noo _ => solve [auto with noo]
  end.

Lemma takez_short : forall l n, (length (PoolModel.takez n l) <= Z.to_nat n)%nat.
Proof. induction l as [|x l IH]; intros n; cbn [PoolModel.takez length]; [lia|]. destruct (n <=? 0) eqn:E; cbn [length]; [lia|]. specialize (IH (n - 1)). lia. Qed.
Lemma utf8_points_noo : forall fuel l, (length l < fuel)%nat -> noo (utf8_points fuel l).
Proof.
  induction fuel as [|f IH]; intros l H; [lia|]. destruct l as [|b1 t]; cbn [utf8_points]; [apply noo_ok|]. cbn [length] in H.
  (* every recursive call is on a tail of t *)
  assert (I : forall t', (length t' <= length t)%nat -> noo (utf8_points f t')) by (intros; apply IH; lia).
  repeat noo_step; apply I; cbn [length]; lia.
Qed.
Lemma decode_length_noo chars off wide : noo (decode_length chars off wide).
Proof. unfold decode_length. repeat noo_step. Qed.
#[export] Hint Resolve decode_length_noo : noo.
Lemma decode8_noo chars off : noo (decode8 chars off).
Proof.
  unfold decode8. repeat noo_step. apply utf8_points_noo. unfold PoolModel.slice.
  match goal with |- context [PoolModel.takez ?n ?l] => pose proof (takez_short l n) end. lia.
Qed.
Lemma decode16_noo chars off : noo (decode16 chars off).
Proof. unfold decode16. repeat noo_step. Qed.
Lemma get_string_noo p i : noo (get_string p i).
Proof. unfold get_string. pose proof decode8_noo. pose proof decode16_noo. repeat noo_step. Qed.
Lemma pu32_noo l : noo (PoolModel.u32 l).
Proof. unfold PoolModel.u32. repeat noo_step. Qed.
Lemma pu16_noo l : noo (PoolModel.u16 l).
Proof. unfold PoolModel.u16. repeat noo_step. Qed.
#[export] Hint Resolve get_string_noo pu32_noo pu16_noo : noo.
Lemma u32s_noo : forall fuel n l, noo (u32s fuel n l).
Proof. induction fuel as [|f IH]; intros n l; cbn [u32s]; repeat noo_step. Qed.
#[export] Hint Resolve u32s_noo : noo.
Lemma parse_pool_noo rest size : noo (parse_pool rest size).
Proof. unfold parse_pool. repeat noo_step. Qed.

Lemma format_value_noo lk ty data : noo (format_value lk ty data).
Proof.
  assert (U : forall units, noo (unit_of units data)) by (intros; unfold unit_of; repeat noo_step).
  unfold format_value. repeat match goal with |- noo (if ?c then _ else _) => destruct c end; try apply noo_ok.
  - specialize (U DIMENSION_UNITS). destruct (unit_of DIMENSION_UNITS data); [apply noo_ok | exact U].
  - specialize (U FRACTION_UNITS). destruct (unit_of FRACTION_UNITS data); [apply noo_ok | exact U].
Qed.
Lemma fix_name_noo nsmap prefix name : noo (fix_name nsmap prefix name).
Proof. unfold fix_name. repeat noo_step. Qed.
#[export] Hint Resolve format_value_noo fix_name_noo : noo.
Section P.
  Variables (p : pool) (sysattr : list (Z * str)).
  Lemma gs_noo i : noo (gs p i).  Proof. apply get_string_noo. Qed.
  #[local] Hint Resolve gs_noo : noo.
  Lemma build_nsmap_noo : forall l m, noo (build_nsmap p l m).
  Proof. induction l as [|[a b] l IH]; intros m; cbn [build_nsmap]; repeat noo_step. Qed.
  Lemma attr_name_noo res a : noo (attr_name p sysattr res a).
  Proof. unfold attr_name. repeat noo_step. Qed.
  Lemma attr_ns_noo a : noo (attr_ns p a).
  Proof. unfold attr_ns. repeat noo_step. Qed.
  Lemma attr_value_noo a : noo (attr_value p a).
  Proof. unfold attr_value. repeat noo_step. Qed.
  #[local] Hint Resolve build_nsmap_noo attr_name_noo attr_ns_noo attr_value_noo : noo.
  Lemma build_attrs_noo res nsmap : forall l acc, noo (build_attrs p sysattr res nsmap l acc).
  Proof. induction l as [|a l IH]; intros acc; cbn [build_attrs]; repeat noo_step. Qed.
  #[local] Hint Resolve build_attrs_noo : noo.
  Lemma resolve_noo res e b : noo (resolve p sysattr res e b).
  Proof. unfold resolve. repeat noo_step. Qed.
  Lemma tree_step_noo e t : noo (tree_step e t).
  Proof. unfold tree_step. repeat noo_step. Qed.
  Lemma on_event_noo res e t : noo (on_event p sysattr res e t).
  Proof. unfold on_event. pose proof resolve_noo. pose proof tree_step_noo. repeat noo_step. Qed.
End P.

Lemma read_attrs_noo : forall fuel n at_size l, noo (read_attrs fuel n at_size l).
Proof. induction fuel as [|f IH]; intros n at_size l; cbn [read_attrs]; repeat noo_step. Qed.
#[export] Hint Resolve read_attrs_noo : noo.
Lemma arsc_loop_ge : forall fuel buf cur ty hs sz c, arsc_loop fuel buf cur = Ok (ty, hs, sz, c) -> cur <= c.
Proof.
  induction fuel as [|f IH]; intros buf cur ty hs sz c H; cbn [arsc_loop] in H; [discriminate|].
  destruct (hdr (TermModel.dropz cur buf)) as [[[t h] s]|]; [|discriminate].
  match type of H with (if ?b then _ else _) = _ => destruct b end; [injection H as <- <- <- <-; lia | apply IH in H; lia].
Qed.
Lemma header_shape {buf pos e h} : arsc_header buf pos e = Ok h ->
  exists ty hs sz after, h = [ty; hs; sz; pos; after] /\ 8 <= hs /\ 8 <= sz /\ pos + 8 <= after /\ pos + 8 <= TermModel.len buf.
Proof.
  intros EH. unfold arsc_header in EH. destruct (TermModel.len buf <? pos + 8) eqn:El; [discriminate|].
  destruct (arsc_loop _ _ _) as [[[[ty hs] sz] cur]|] eqn:E; cbn [bind] in EH; [|discriminate]. apply arsc_loop_ge in E.
  destruct (_ && _); [discriminate|]. destruct (hs <? 8) eqn:E1; [discriminate|]. destruct (sz <? 8) eqn:E2; [discriminate|]. destruct (sz <? hs); [discriminate|].
  injection EH as <-. exists ty, hs, sz, (cur + 8). repeat split; lia.
Qed.
Lemma arsc_header_facts buf start e ty hs sz st after : 0 <= start -> arsc_header buf start e = Ok [ty; hs; sz; st; after] ->
  st = start /\ start + 8 <= start + sz /\ start + 8 <= after /\ start + 8 <= TermModel.len buf.
Proof. intros _ H. destruct (header_shape H) as (? & ? & ? & ? & [= -> -> -> -> ->] & _ & Fs & F2 & F3). repeat split; lia. Qed.
Lemma header_then {B} buf pos e (k : list Z -> result B) : 0 <= pos ->
  (forall ty hs sz after, 8 <= hs -> 8 <= sz -> pos + 8 <= after -> pos + 8 <= TermModel.len buf -> noo (k [ty; hs; sz; pos; after])) ->
  noo (bind (arsc_header buf pos e) k).
Proof.
  intros H0 K. apply bind_noo_eq; [exact (arsc_header_ends buf pos e H0)|]. intros h EH.
  destruct (header_shape EH) as (ty & hs & sz & after & -> & Fh & Fs & F2 & F3). exact (K ty hs sz after Fh Fs F2 F3).
Qed.
Definition need (buf : list Z) (pos : Z) : Z := Z.max 0 ((TermModel.len buf - pos) / 8) + 1.
Lemma do_next_noo : forall fuel buf fs st, 0 <= s_pos st -> need buf (s_pos st) <= Z.of_nat fuel -> noo (do_next fuel buf fs st).
Proof.
  induction fuel as [|f IH]; intros buf fs st H0 Hn; [unfold need in Hn; lia|]. cbn [do_next]. destruct (s_pos st =? fs); [apply noo_ok|].
  apply header_then; [exact H0|]. intros ty hs sz after Fh Fs F2 F3.
  (* every further call stands behind the header just read, so one unit of fuel less is enough *)
  repeat (noo_step || (apply IH; cbn [s_pos]; unfold need in *; lia)).
Qed.
(* an event is delivered at least eight bytes further on *)
Ltac dn_adv IH H :=
  repeat match type of H with
  | Ok _ = Ok _ => injection H as <- <-; cbn [s_pos]; split; [lia | split; intros _; lia]
  | Ok (None, _) = Ok _ => injection H as <- <-
  | Err _ = Ok _ => discriminate H
  | do_next _ _ _ _ = Ok _ => apply IH in H; cbn [s_pos] in H; [destruct H as (H1 & H2 & _); split; [lia | split; intros X; [specialize (H2 X); lia | lia]] | cbn [s_pos]; lia]
  | bind ?a _ = Ok _ => let E := fresh "E" in destruct a as [[? ?]|?] eqn:E; cbn [bind] in H
  | (let '(_, _) := ?x in _) = Ok _ => destruct x
  | (if ?c then _ else _) = Ok _ => destruct c
  end.
Lemma do_next_advances : forall fuel buf fs st oe st', 0 <= s_pos st -> do_next fuel buf fs st = Ok (oe, st') ->
  s_pos st <= s_pos st' /\ (oe <> None -> s_pos st + 8 <= s_pos st') /\ (oe <> None -> s_pos st + 8 <= TermModel.len buf).
Proof.
  induction fuel as [|f IH]; intros buf fs st oe st' H0 H; [discriminate|]. cbn [do_next] in H. destruct (s_pos st =? fs).
  - injection H as <- <-. split; [lia | split; congruence].
  - destruct (arsc_header buf (s_pos st) 0) as [h|e] eqn:EH; [|discriminate].
    destruct (header_shape EH) as (ty & hs & sz & after & -> & _ & Fs & F2 & F3). dn_adv IH H.
Qed.

Lemma need_le_length buf pos : 0 <= pos -> need buf pos <= Z.of_nat (S (length buf)).
Proof. intros H. unfold need, TermModel.len. lia. Qed.
Lemma run_doc_noo p sysattr buf fs : forall fuel st t, 0 <= s_pos st -> need buf (s_pos st) <= Z.of_nat fuel -> noo (run_doc fuel p sysattr buf fs st t).
Proof.
  induction fuel as [|f IH]; intros st t H0 Hn; [unfold need in Hn; lia|]. cbn [run_doc].
  apply bind_noo_eq; [apply do_next_noo, need_le_length; exact H0|]. intros [[e|] st'] E; [|apply noo_ok].
  apply noo_bind; [apply on_event_noo|]. intros t'.
  destruct (do_next_advances _ _ _ _ _ _ H0 E) as (A1 & A2 & A3). specialize (A2 ltac:(discriminate)). specialize (A3 ltac:(discriminate)).
  (* the header of the event's chunk was accepted, so the buffer reaches eight bytes further and the count drops by one *)
  apply IH; [lia|]. unfold need in *. lia.
Qed.
(* AXMLPrinter over any bytes: the chunk loop, the event loop and every string lookup end; the result is a tree, no tree, or
   an error other than "out of fuel" *)
Theorem parse_axml_ends sysattr buf : parse_axml sysattr buf <> Err OutOfFuel.
Proof.
  change (noo (parse_axml sysattr buf)). unfold parse_axml. destruct (PoolModel.len buf <? 8); [discriminate|].
  apply header_then; [lia|]. intros ty hs filesize after Fh _ F2 _.
  destruct (negb (hs =? 8)); [discriminate|]. destruct (PoolModel.len buf <? filesize); [discriminate|].
  apply header_then; [lia|]. intros t2 hs2 size2 after2 _ G1 _ _.
  destruct (negb (hs2 =? 28)); [discriminate|].
  apply noo_bind; [apply parse_pool_noo|]. intros p. apply noo_bind.
  - apply run_doc_noo; cbn [s_pos]; [lia | apply need_le_length; lia].
  - intros [stack root]. destruct stack; apply noo_ok.
Qed.
