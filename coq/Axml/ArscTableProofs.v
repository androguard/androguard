(* C28 - the walk over a resource table: a package's chunks (type specs and types) and the table itself, written by the
   encoders below, are read back as exactly the encoded packages, types and entries *)
From Coq Require Import ZArith List Bool Lia ZifyBool.
Require Import V.Lib.Val V.Lib.Result V.Lib.Struct V.Axml.PoolModel V.Axml.PoolProofs V.Axml.ArscTypeModel V.Axml.ArscTypeProofs V.Axml.ArscComplex
               V.Axml.ArscTypeChunk V.Axml.ArscTypeChunkEnc V.Axml.ArscTableModel V.Misc.TermModel.
Import ListNotations.
Open Scope Z_scope.

(* these reach every importer: Props/C28.v, where PoolProofs.b32 would otherwise be the one in scope, reads its statements
   through them; here TermModel.len would hide PoolModel.len *)
Notation b16 := ArscTypeProofs.b16.
Notation b32 := ArscTypeProofs.b32.
Notation len := PoolModel.len.

Definition hdr8 (ty hs sz : Z) : list Z := b16 ty ++ b16 hs ++ b32 sz.
Lemma len_hdr8 ty hs sz : len (hdr8 ty hs sz) = 8.  Proof. reflexivity. Qed.
Lemma hdr8_at {buf p ty hs sz rest} ex : tail_at buf p (b16 ty ++ b16 hs ++ b32 sz ++ rest) ->
  0 <= ty < 65536 -> 8 <= hs < 65536 -> hs <= sz < 4294967296 -> ex = 0 \/ ex = ty ->
  arsc_header buf p ex = Ok [ty; hs; sz; p; p + 8].
Proof.
  intros T Ht Hh Hs Hex. apply (header_at T); [|lia | exact Hex].
  unfold ArscTypeProofs.b16, ArscTypeProofs.b32. cbn [lbytes app hdr]. repeat f_equal; lia.
Qed.
Lemma arsc_header_lb pre ty hs sz rest ex : 0 <= ty < 65536 -> 8 <= hs < 65536 -> hs <= sz < 4294967296 -> ex = 0 \/ ex = ty ->
  arsc_header (pre ++ hdr8 ty hs sz ++ rest) (len pre) ex = Ok [ty; hs; sz; len pre; len pre + 8].
Proof. unfold hdr8. rewrite <- !app_assoc. apply (hdr8_at (rest := rest)), tail_at_here. Qed.

Inductive pchunk :=
| PSpec (tid : Z) (flags : list Z)                                         (* a type spec: one flag word per entry *)
| PType (tid cz : Z) (tail : list Z) (slots : list (option erec))           (* a type: configuration of cz bytes, the slots; 32-bit offsets *)
| PTypeG (tid fl cnt cz : Z) (tail oa : list Z) (slots : list (option erec))    (* a type in any encoding of the offset array oa (flags fl, count cnt) *)
| POther (ty hs : Z) (body : list Z).                                            (* any other chunk (library, overlayable, ...): the rest of its header and its body *)
Definition spec_bytes (tid : Z) (flags : list Z) : list Z :=
  hdr8 514 16 (16 + 4 * Z.of_nat (length flags)) ++ [tid; 0] ++ b16 0 ++ b32 (Z.of_nat (length flags)) ++ flat_map b32 flags.
Definition pchunk_bytes (c : pchunk) : list Z :=
  match c with
  | PSpec tid fl => spec_bytes tid fl
  | PType tid cz tail slots => type_chunk_bytes tid (b32 cz ++ tail) slots
  | PTypeG tid fl cnt cz tail oa slots => type_chunk_bytes_gen tid fl cnt (b32 cz ++ tail) oa slots
  | POther ty hs body => hdr8 ty hs (8 + len body) ++ body
  end.
Definition chunks_bytes (cs : list pchunk) : list Z := flat_map pchunk_bytes cs.
Definition wf_pchunk (tpool : pool) (c : pchunk) : Prop :=
  match c with
  | PSpec tid fl => 16 + 4 * Z.of_nat (length fl) < 4294967296
  | PType tid cz tail slots => 52 <= cz < 65516 /\ len tail = cz - 4 /\ Forall wf_slot slots /\ type_chunk_size (b32 cz ++ tail) slots < 4294967295 /\
                              exists s, get_string tpool (tid - 1) = Ok s
  | PTypeG tid fl cnt cz tail oa slots =>
      52 <= cz < 65516 /\ len tail = cz - 4 /\ Forall wf_slot slots /\ 0 <= cnt < 4294967296 /\
      20 + cz + len oa + len (body_bytes slots) < 4294967295 /\
      (forall base fuel rest', len oa <= Z.of_nat fuel -> read_offsets fuel fl 0 cnt base (oa ++ rest') = Ok (present base 0 (slot_offsets 0 slots))) /\
      exists s, get_string tpool (tid - 1) = Ok s
  | POther ty hs body => 0 <= ty < 65536 /\ ty <> 513 /\ ty <> 514 /\ 8 <= hs < 65536 /\ hs <= 8 + len body /\ 8 + len body < 4294967296
  end.
Definition type_of (pkg : Z) (c : pchunk) : list type_chunk :=
  match c with
  | PSpec _ _ => []
  | PType tid cz tail slots => [{| t_id := tid; t_flags := 0; t_count := Z.of_nat (length slots); t_entries := expected (pkg * 16777216 + tid * 65536) 0 slots |}]
  | PTypeG tid fl cnt cz tail oa slots => [{| t_id := tid; t_flags := fl; t_count := cnt; t_entries := expected (pkg * 16777216 + tid * 65536) 0 slots |}]
  | POther _ _ _ => []
  end.
Definition types_of (pkg : Z) (cs : list pchunk) : list type_chunk := flat_map (type_of pkg) cs.

Lemma len_b32s l : len (flat_map b32 l) = 4 * Z.of_nat (length l).  Proof. now apply len_flat_map. Qed.
#[export] Hint Rewrite len_hdr8 len_b32s : len.
Lemma len_spec tid fl : len (spec_bytes tid fl) = 16 + 4 * Z.of_nat (length fl).
Proof. unfold spec_bytes. autorewrite with len. lia. Qed.
Lemma len_pchunk_ge c : 8 <= len (pchunk_bytes c).
Proof. destruct c; cbn [pchunk_bytes]; rewrite ?type_chunk_bytes_dense, ?len_spec, ?len_type_chunk_gen, ?len_app, ?len_hdr8; unfold len; lia. Qed.

Lemma wf_ptype_dense tpool tid cz tail slots : wf_pchunk tpool (PType tid cz tail slots) ->
  wf_pchunk tpool (PTypeG tid 0 (Z.of_nat (length slots)) cz tail (flat_map enc32 (slot_offsets 0 slots)) slots).
Proof.
  cbn [wf_pchunk]. unfold type_chunk_size. intros (H1 & H2 & H3 & H4 & H5). autorewrite with len in H4. pose proof (len_nonneg (body_bytes slots)).
  refine (conj H1 (conj H2 (conj H3 (conj _ (conj _ (conj (fun base => dense_array slots base _) H5)))))); autorewrite with len; lia.
Qed.
Lemma package_type_step tpool pkg tid fl cnt cz tail oa slots buf p rest pend f acc :
  wf_pchunk tpool (PTypeG tid fl cnt cz tail oa slots) -> tail_at buf p (type_chunk_bytes_gen tid fl cnt (b32 cz ++ tail) oa slots ++ rest) ->
  p + len (type_chunk_bytes_gen tid fl cnt (b32 cz ++ tail) oa slots) <= pend ->
  package_chunks (S f) buf tpool p pend pkg acc =
  package_chunks f buf tpool (p + len (type_chunk_bytes_gen tid fl cnt (b32 cz ++ tail) oa slots)) pend pkg
    (acc ++ [{| t_id := tid; t_flags := fl; t_count := cnt; t_entries := expected (pkg * 16777216 + tid * 65536) 0 slots |}]).
Proof.
  intros (Hcz & Ht & Hws & Hcnt & Hsz & HOA & s & Hgs) T. pose proof (type_chunk_gen_at pkg T Hcz Ht Hws Hcnt Hsz (HOA _)) as TC.
  destruct (tail_at_len T) as [P0 _]. pose proof (len_nonneg (body_bytes slots)). pose proof (len_nonneg oa).
  unfold type_chunk_bytes_gen in T. cbv zeta in T. rewrite <- !app_assoc in T. rewrite len_type_chunk_gen. autorewrite with len. intros He.
  cbn [package_chunks]. replace (pend - 8 <? p) with false by lia. rewrite (hdr8_at 0 T) by (autorewrite with len; lia). cbn [bind].
  autorewrite with len. destruct (pend <? _) eqn:E; [lia|]. change (513 =? RES_TABLE_TYPE_SPEC) with false. change (513 =? RES_TABLE_TYPE) with true. cbv iota.
  do 3 apply tail_at_app in T. rewrite (at_tail T) by (autorewrite with len; lia). cbn [app u8 bind]. rewrite Hgs. cbn [bind]. rewrite TC. reflexivity.
Qed.
Lemma package_chunk_step {tpool pkg c buf p rest pend f acc} :
  wf_pchunk tpool c -> tail_at buf p (pchunk_bytes c ++ rest) -> p + len (pchunk_bytes c) <= pend ->
  package_chunks (S f) buf tpool p pend pkg acc = package_chunks f buf tpool (p + len (pchunk_bytes c)) pend pkg (acc ++ type_of pkg c).
Proof.
  destruct c as [tid fl|tid cz tail slots|tid fl cnt cz tail oa slots|ty hs body]; cbn [pchunk_bytes type_of]; intros Wc T.
  2: { apply wf_ptype_dense in Wc. rewrite type_chunk_bytes_dense in *. now apply package_type_step with (rest := rest). }
  2: { now apply package_type_step with (rest := rest). }
  all: destruct (tail_at_len T) as [P0 _]; cbn [wf_pchunk] in Wc; rewrite app_nil_r.
  - rewrite len_spec. intros He. unfold spec_bytes, hdr8 in T. rewrite <- !app_assoc in T.
    cbn [package_chunks]. replace (pend - 8 <? p) with false by lia. rewrite (hdr8_at 0 T) by lia. cbn [bind].
    destruct (pend <? _) eqn:E; [lia|]. change (514 =? RES_TABLE_TYPE_SPEC) with true. cbv iota.
    do 3 apply tail_at_app in T. rewrite (at_tail T) by (autorewrite with len; lia). cbn [app u8 bind]. now read.
  - autorewrite with len. pose proof (len_nonneg body). intros He.
    unfold hdr8 in T. rewrite <- !app_assoc in T.
    cbn [package_chunks]. replace (pend - 8 <? p) with false by lia. rewrite (hdr8_at 0 T) by lia. cbn [bind].
    destruct (pend <? _) eqn:E; [lia|]. unfold RES_TABLE_TYPE_SPEC, RES_TABLE_TYPE. replace (ty =? 514) with false by lia. now replace (ty =? 513) with false by lia.
Qed.

Lemma package_chunks_at tpool pkg : forall cs buf p rest acc fuel, Forall (wf_pchunk tpool) cs -> (length cs < fuel)%nat ->
  tail_at buf p (chunks_bytes cs ++ rest) ->
  package_chunks fuel buf tpool p (p + len (chunks_bytes cs)) pkg acc = Ok (acc ++ types_of pkg cs).
Proof.
  induction cs as [|c cs IH]; intros buf p rest acc fuel Hw Hf T; (destruct fuel as [|f]; cbn [length] in Hf; [lia|]).
  - cbn [package_chunks]. change (len (chunks_bytes [])) with 0. replace (p + 0 - 8 <? p) with true by lia. now rewrite app_nil_r.
  - apply Forall_cons_iff in Hw as [Wc Wr]. unfold chunks_bytes in *. cbn [flat_map] in *. rewrite <- app_assoc in T. rewrite len_app, Z.add_assoc.
    pose proof (len_nonneg (flat_map pchunk_bytes cs)). rewrite (package_chunk_step Wc T) by lia.
    apply tail_at_app in T. rewrite (IH _ _ _ _ f Wr ltac:(lia) T). unfold types_of. cbn [flat_map]. now rewrite app_assoc.
Qed.
Arguments package_chunks_at {tpool pkg cs buf p rest acc fuel}.
Theorem package_chunks_exact tpool pkg : forall cs pre rest acc fuel,
  Forall (wf_pchunk tpool) cs -> (length cs < fuel)%nat ->
  package_chunks fuel (pre ++ chunks_bytes cs ++ rest) tpool (len pre) (len pre + len (chunks_bytes cs)) pkg acc = Ok (acc ++ types_of pkg cs).
Proof. intros cs pre rest acc fuel Hw Hf. apply (package_chunks_at (rest := rest)); [exact Hw | exact Hf | apply tail_at_here]. Qed.

Lemma chunks_count_le cs : Z.of_nat (length cs) * 8 <= len (chunks_bytes cs).
Proof. rewrite Z.mul_comm. apply len_flat_map_ge, Forall_forall. intros c _. apply len_pchunk_ge. Qed.

Definition pool_chunk (u : bool) (ss : list str) (pad : list Z) : list Z := hdr8 1 28 (pool_size u ss pad) ++ pool_bytes u ss pad.
Definition pool_bound (u : bool) (ss : list str) : Prop :=
  28 + 4 * Z.of_nat (length ss) + len (concat (map (if u then entry8 else entry16) ss)) < 4294967296.
Lemma len_pool_chunk u ss pad : len (pool_chunk u ss pad) = pool_size u ss pad.
Proof. unfold pool_chunk. rewrite len_app, len_hdr8, len_pool_bytes. lia. Qed.
#[export] Hint Rewrite len_pool_chunk : len.
Lemma pool_chunk_at {buf p u ss pad rest} ex : tail_at buf p (pool_chunk u ss pad ++ rest) ->
  pool_bound u ss -> pool_size u ss pad < 4294967296 -> ex = 0 \/ ex = 1 ->
  arsc_header buf p ex = Ok [1; 28; pool_size u ss pad; p; p + 8] /\ pool_at buf (p + 8) (pool_size u ss pad) = Ok (pool_of u ss pad).
Proof.
  intros T Hb Hs Hex. pose proof (pool_size_ge u ss pad). unfold pool_chunk, hdr8 in T. rewrite <- !app_assoc in T. split.
  - apply (hdr8_at _ T); lia.
  - do 3 apply tail_at_app in T. unfold pool_at. rewrite (at_tail T) by (autorewrite with len; lia). now apply parse_pool_exact.
Qed.

Record pkg_desc := { d_id : Z; d_name : list Z; d_tu : bool; d_tss : list str; d_tpad : list Z; d_ku : bool; d_kss : list str; d_kpad : list Z;
                     d_last_type : Z; d_last_key : Z; d_chunks : list pchunk }.
Definition pkg_size (d : pkg_desc) : Z :=
  288 + pool_size (d_tu d) (d_tss d) (d_tpad d) + pool_size (d_ku d) (d_kss d) (d_kpad d) + len (chunks_bytes (d_chunks d)).
Definition pkg_bytes (d : pkg_desc) : list Z :=
  hdr8 512 288 (pkg_size d) ++ b32 (d_id d) ++ d_name d ++ b32 288 ++ b32 (d_last_type d) ++
  b32 (288 + pool_size (d_tu d) (d_tss d) (d_tpad d)) ++ b32 (d_last_key d) ++ b32 0 ++
  pool_chunk (d_tu d) (d_tss d) (d_tpad d) ++ pool_chunk (d_ku d) (d_kss d) (d_kpad d) ++ chunks_bytes (d_chunks d).
Definition table_bytes (mu : bool) (mss : list str) (mpad : list Z) (d : pkg_desc) : list Z :=
  hdr8 2 12 (12 + pool_size mu mss mpad + pkg_size d) ++ b32 1 ++ pool_chunk mu mss mpad ++ pkg_bytes d.
Definition wf_pkg (d : pkg_desc) : Prop :=
  0 <= d_id d < 4294967296 /\ len (d_name d) = 256 /\ 0 <= d_last_type d < 4294967296 /\ 0 <= d_last_key d < 4294967296 /\
  pool_bound (d_tu d) (d_tss d) /\ pool_bound (d_ku d) (d_kss d) /\
  Forall (wf_pchunk (pool_of (d_tu d) (d_tss d) (d_tpad d))) (d_chunks d).

Lemma pkg_size_ge d : 288 <= pkg_size d.
Proof.
  unfold pkg_size. pose proof (pool_size_ge (d_tu d) (d_tss d) (d_tpad d)). pose proof (pool_size_ge (d_ku d) (d_kss d) (d_kpad d)).
  pose proof (len_nonneg (chunks_bytes (d_chunks d))). lia.
Qed.
Lemma len_pkg_bytes d : len (d_name d) = 256 -> len (pkg_bytes d) = pkg_size d.
Proof. intros Hn. unfold pkg_bytes, pkg_size. autorewrite with len. lia. Qed.

Lemma package_at {d buf p rest fuel hend pkgcount seen acc} :
  wf_pkg d -> tail_at buf p (pkg_bytes d ++ rest) -> p + pkg_size d <= hend -> hend < 4294967296 -> Z.of_nat (length acc) <= pkgcount ->
  table_chunks (S fuel) buf p hend pkgcount seen acc =
  table_chunks fuel buf (p + pkg_size d) hend pkgcount seen
    (add_package {| pk_id := d_id d; pk_name := name_units (d_name d); pk_types := types_of (d_id d mod 256) (d_chunks d) |} acc).
Proof.
  intros (Hid & Hname & Hlt & Hlk & Htb & Hkb & Hcs) T Hend Hh Hacc. destruct (tail_at_len T) as [P0 _].
  pose proof (pool_size_ge (d_tu d) (d_tss d) (d_tpad d)). pose proof (pool_size_ge (d_ku d) (d_kss d) (d_kpad d)). pose proof (chunks_count_le (d_chunks d)).
  unfold pkg_bytes, pkg_size, hdr8 in *. rewrite <- !app_assoc in T.
  cbn [table_chunks]. replace (hend - 8 <? p) with false by lia. rewrite (hdr8_at 0 T) by lia. cbn [bind].
  destruct (hend <? _) eqn:E0; [lia|]. change (512 =? RES_STRING_POOL) with false. change (512 =? RES_TABLE_PACKAGE) with true. cbv iota.
  replace (pkgcount <? Z.of_nat (length acc)) with false by lia.
  do 3 apply tail_at_app in T. rewrite (at_tail T) by (autorewrite with len; lia). read. rewrite <- Hname, takez_app, dropz_app. read.
  do 7 apply tail_at_app in T. autorewrite with len in T. rewrite Hname in T.
  destruct (pool_chunk_at RES_STRING_POOL (tail_at_eq (p + 288) T ltac:(lia)) Htb ltac:(lia) (or_intror eq_refl)) as [-> E]. cbn [bind]. rewrite E. cbn [bind].
  apply tail_at_app in T. autorewrite with len in T.
  destruct (pool_chunk_at RES_STRING_POOL (tail_at_eq (p + (288 + pool_size (d_tu d) (d_tss d) (d_tpad d))) T ltac:(lia)) Hkb ltac:(lia) (or_intror eq_refl)) as [-> E']. cbn [bind]. rewrite E'. cbn [bind].
  apply tail_at_app in T. autorewrite with len in T. destruct (tail_at_len T) as [_ Lb]. rewrite len_app in Lb. pose proof (len_nonneg rest).
  rewrite !Z.add_assoc.
  rewrite (package_chunks_at (rest := rest) Hcs); [reflexivity | unfold len in *; lia | apply (tail_at_eq _ T); lia].
Qed.
Lemma table_chunks_end fuel buf p hend pkgcount seen acc : hend - 8 < p -> table_chunks (S fuel) buf p hend pkgcount seen acc = Ok acc.
Proof. intros H. cbn [table_chunks]. now replace (hend - 8 <? p) with true by lia. Qed.
Lemma table_start buf mu mss mpad n rest T :
  buf = hdr8 2 12 T ++ b32 n ++ pool_chunk mu mss mpad ++ rest -> pool_bound mu mss -> 0 <= n < 4294967296 ->
  T = 12 + pool_size mu mss mpad + len rest -> T < 4294967296 ->
  parse_table buf = table_chunks (length buf) buf (12 + pool_size mu mss mpad) T n true [] /\ tail_at buf (12 + pool_size mu mss mpad) rest.
Proof.
  intros E Hb Hn HT Hlt. pose proof (pool_size_ge mu mss mpad). pose proof (len_nonneg rest).
  assert (T0 : tail_at buf 0 (b16 2 ++ b16 12 ++ b32 T ++ b32 n ++ pool_chunk mu mss mpad ++ rest)).
  { rewrite E. unfold hdr8. rewrite <- !app_assoc. apply (tail_at_here []). }
  assert (Lb : len buf = T) by (destruct (tail_at_len T0) as [_ ->]; autorewrite with len; lia).
  unfold parse_table. change TermModel.len with len. rewrite Lb. replace ((T <? 8) || (4294967295 <? T)) with false by lia.
  rewrite (hdr8_at RES_TABLE T0) by (unfold RES_TABLE; lia). cbn [bind]. replace (T <? T) with false by lia.
  do 3 apply tail_at_app in T0. rewrite (at_tail T0) by reflexivity. read. change (0 + 12) with 12. change (0 + T) with T.
  apply tail_at_app in T0. destruct (pool_chunk_at 0 (tail_at_eq 12 T0 eq_refl) Hb ltac:(lia) (or_introl eq_refl)) as [E1 E2].
  apply tail_at_app in T0. autorewrite with len in T0. split; [|exact (tail_at_eq (12 + pool_size mu mss mpad) T0 ltac:(lia))].
  cbn [table_chunks]. replace (T - 8 <? 12) with false by lia. rewrite E1. cbn [bind]. replace (T <? 12 + pool_size mu mss mpad) with false by lia.
  change (1 =? RES_STRING_POOL) with true. cbv iota. now rewrite E2.
Qed.

(* the whole table: header, package count, main string pool, one package (header, type and key string pools, type specs
   and types) - read back as that package with exactly the encoded types and entries *)
Theorem table_exact mu mss mpad d :
  wf_pkg d -> pool_bound mu mss -> 12 + pool_size mu mss mpad + pkg_size d < 4294967296 ->
  parse_table (table_bytes mu mss mpad d) =
  Ok [{| pk_id := d_id d; pk_name := name_units (d_name d); pk_types := types_of (d_id d mod 256) (d_chunks d) |}].
Proof.
  intros Hw Hmb Htot. pose proof Hw as (_ & Hname & _).
  destruct (table_start (table_bytes mu mss mpad d) mu mss mpad 1 (pkg_bytes d) _ eq_refl Hmb ltac:(lia) ltac:(now rewrite len_pkg_bytes) Htot) as [-> T].
  destruct (tail_at_len T) as [_ Lb]. rewrite len_pkg_bytes in Lb by exact Hname. pose proof (pool_size_ge mu mss mpad).
  pose proof (pkg_size_ge d).
  unfold len at 1 in Lb. destruct (length (table_bytes mu mss mpad d)) as [|[|f]]; [lia | lia |].
  rewrite <- (app_nil_r (pkg_bytes d)) in T. rewrite (package_at Hw T) by (cbn [length]; lia). apply table_chunks_end. lia.
Qed.
Print Assumptions table_exact.

(* a table: main pool ["hello"], package 127 "ab" with type strings ["string"], key strings ["k"], a type spec and one type
   chunk holding a string entry and a missing one *)
Definition ex_desc : pkg_desc :=
  {| d_id := 127; d_name := [97; 0; 98; 0] ++ repeat 0 252; d_tu := true; d_tss := [[115; 116; 114; 105; 110; 103]]; d_tpad := [0];
     d_ku := false; d_kss := [[107]]; d_kpad := []; d_last_type := 1; d_last_key := 1;
     d_chunks := [PSpec 1 [0; 0]; PType 1 64 (repeat 0 60) [Some (RPlain 0 0 3 0); None]] |}.
Example table_example :
  wf_pkg ex_desc /\
  parse_table (table_bytes true [[104; 101; 108; 108; 111]] [0; 0] ex_desc) =
  Ok [{| pk_id := 127; pk_name := [97; 98];
         pk_types := [{| t_id := 1; t_flags := 0; t_count := 2;
                         t_entries := [{| e_id := 2130771968; e_size := 8; e_flags := 0; e_index := 0; e_payload := Plain 3 0 |}] |}] |}].
Proof.
  assert (W : wf_pkg ex_desc).
  { unfold wf_pkg, ex_desc. cbn [d_id d_name d_tu d_tss d_tpad d_ku d_kss d_kpad d_last_type d_last_key d_chunks].
    split; [lia|]. split; [reflexivity|]. split; [lia|]. split; [lia|]. split; [vm_compute; reflexivity|]. split; [vm_compute; reflexivity|].
    constructor; [cbn; lia|]. constructor; [|constructor]. cbn [wf_pchunk]. split; [lia|]. split; [reflexivity|].
    split; [repeat constructor; cbn; lia|]. split; [vm_compute; reflexivity|]. eexists. vm_compute. reflexivity. }
  split; [exact W|]. rewrite (table_exact true [[104; 101; 108; 108; 111]] [0; 0] ex_desc W); [reflexivity | vm_compute; reflexivity | vm_compute; reflexivity].
Qed.
