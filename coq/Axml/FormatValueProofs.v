(* C27 - what format_value prints, type by type: complex_to_float is that of AOSP, '%f' gives the six-decimal number nearest
   to the fraction, the integer types print signed, in hex or as a colour, references and attributes carry the android
   prefix for package 1.  The masks are turned into div and mod (Bits.land_shl_mask); what is left is arithmetic for lia *)
From Coq Require Import ZArith List Bool Lia.
Require Import V.Lib.Val V.Lib.Result V.Lib.Fmt V.Lib.Bits V.Axml.FormatValueModel.
Import ListNotations.
Open Scope Z_scope.

Lemma land_shl_mask : forall x m k, 0 <= k -> Z.land x (Z.shiftl m k) = Z.shiftl (Z.land (Z.shiftr x k) m) k.
Proof. exact Bits.land_shl_mask. Qed.

Lemma land_mantissa : forall x, Z.land x 4294967040 = ((x / 256) mod 16777216) * 256.
Proof.
  intros x. change 4294967040 with (Z.shiftl (Z.ones 24) 8). rewrite land_shl_mask by lia.
  rewrite Z.land_ones by lia. rewrite Z.shiftl_mul_pow2, Z.shiftr_div_pow2 by lia. reflexivity.
Qed.
Lemma land_signbit : forall m, 0 <= m < 4294967296 -> (Z.land m 2147483648 =? 0) = (m <? 2147483648).
Proof.
  intros m Hm. change 2147483648 with (Z.shiftl (Z.ones 1) 31) at 1. rewrite land_shl_mask by lia.
  rewrite Z.land_ones by lia. rewrite Z.shiftl_mul_pow2, Z.shiftr_div_pow2 by lia.
  change (2 ^ 31) with 2147483648. change (2 ^ 1) with 2.
  destruct (m <? 2147483648) eqn:E; [apply Z.eqb_eq|apply Z.eqb_neq]; lia.
Qed.

(* AOSP complex_to_float: signed 24-bit mantissa, radix 23p0 / 16p7 / 8p15 / 0p23 *)
Definition aosp_mantissa (x : Z) : Z :=
  let m := (x / 256) mod 16777216 in if m <? 8388608 then m else m - 16777216.
Definition aosp_den (r : Z) : Z := if r =? 0 then 1 else if r =? 1 then 2 ^ 7 else if r =? 2 then 2 ^ 15 else 2 ^ 23.
Definition radix_of (x : Z) : Z := (x / 16) mod 4.

Lemma radix_land : forall x, Z.land (Z.shiftr x 4) 3 = radix_of x.
Proof. intros x. change 3 with (Z.ones 2). rewrite Z.land_ones by lia. rewrite Z.shiftr_div_pow2 by lia. reflexivity. Qed.

Theorem complex_is_aosp : forall x, 0 <= x < 4294967296 ->
  let c := complex_to_float x in
  neg c = (aosp_mantissa x <? 0) /\ num c = Z.abs (aosp_mantissa x) * 256 /\ den c = 256 * aosp_den (radix_of x) /\
  0 < den c.
Proof.
  intros x _. unfold complex_to_float. cbn [neg num den]. rewrite radix_land, land_mantissa.
  set (m := (x / 256) mod 16777216). assert (Hm : 0 <= m < 16777216) by (unfold m; lia).
  rewrite land_signbit by lia. unfold aosp_mantissa. fold m.
  assert (Hd : radix_den (radix_of x) = 256 * aosp_den (radix_of x) /\ 0 < radix_den (radix_of x)).
  { unfold radix_den, aosp_den. destruct (radix_of x =? 0), (radix_of x =? 1), (radix_of x =? 2); split; reflexivity. }
  destruct Hd as [Hd1 Hd2].
  destruct (m * 256 <? 2147483648) eqn:E1; destruct (m <? 8388608) eqn:E2; lia.
Qed.

(* '%f': correct rounding to six decimals *)
Lemma round_half_even_nearest : forall n d, 0 <= n -> 0 < d ->
  let m := round_half_even n d in 0 <= m /\ 2 * Z.abs (m * d - n) <= d.
Proof.
  intros n d Hn Hd. unfold round_half_even.
  pose proof (Z.div_mod n d ltac:(lia)) as E. pose proof (Z.mod_pos_bound n d Hd) as Hr.
  assert (Hq : 0 <= n / d) by (apply Z.div_pos; lia).
  set (q := n / d) in *. set (r := n mod d) in *.
  destruct (d <? 2 * r) eqn:E1; [|destruct (2 * r =? d) eqn:E2; [destruct (Z.even q)|]]; cbn zeta; split; nia.
Qed.

Theorem fmt_f_rounds : forall x, 0 <= num x -> 0 < den x ->
  exists m, 0 <= m /\ 2 * Z.abs (m * den x - num x * 1000000) <= den x /\
    fmt_f x = (if neg x then [45] else []) ++ dec (m / 1000000) ++ [46] ++ pad0 6 (dec (m mod 1000000)).
Proof.
  intros x Hn Hd. exists (round_half_even (num x * 1000000) (den x)).
  destruct (round_half_even_nearest (num x * 1000000) (den x) ltac:(lia) Hd) as [H1 H2].
  split; [exact H1|]. split; [exact H2|]. reflexivity.
Qed.

(* the six digits after the point denote m mod 10^6 *)
Theorem six_digits : forall k, 0 <= k < 1000000 ->
  length (pad0 6 (dec k)) = 6%nat /\ text_value 10 (pad0 6 (dec k)) = k.
Proof.
  intros k Hk. split.
  - apply pad0_length. unfold dec, digits. rewrite map_length. apply digits_aux_len_bound; [lia | exact Hk | lia].
  - rewrite text_value_pad0. apply dec_value. lia.
Qed.

Theorem fmt_int_signed : forall x, 0 <= x < 4294967296 ->
  fmt_int x = if x <? 2147483648 then x else x - 4294967296.
Proof.
  intros x Hx. unfold fmt_int. rewrite land_u31. destruct (2147483647 <? x) eqn:E1; destruct (x <? 2147483648) eqn:E2; lia.
Qed.
Theorem fmt_package_android : forall x,
  fmt_package x = if (16777216 <=? x) && (x <? 33554432) then S_android else [].
Proof.
  intros x. unfold fmt_package. rewrite Z.shiftr_div_pow2 by lia. change (2 ^ 24) with 16777216.
  destruct (x / 16777216 =? 1) eqn:E; destruct (16777216 <=? x) eqn:E1; destruct (x <? 33554432) eqn:E2; cbn [andb]; try reflexivity; lia.
Qed.

Lemma fv_dimension : forall lk data u, nth_error DIMENSION_UNITS (Z.to_nat (Z.land data 15)) = Some u ->
  format_value lk TYPE_DIMENSION data = Ok (fmt_f (complex_to_float data) ++ u).
Proof. intros lk data u H. unfold format_value, unit_of. cbn. rewrite H. reflexivity. Qed.

Lemma fv_fraction : forall lk data u, nth_error FRACTION_UNITS (Z.to_nat (Z.land data 15)) = Some u ->
  format_value lk TYPE_FRACTION data =
  Ok (fmt_f {| neg := neg (complex_to_float data); num := num (complex_to_float data) * 100;
               den := den (complex_to_float data) |} ++ u).
Proof. intros lk data u H. unfold format_value, unit_of. cbn. rewrite H. reflexivity. Qed.

(* the integer types other than hex and boolean: colours from 28 on, signed decimals below *)
Lemma fv_int_types : forall lk ty data, 16 <= ty <= 31 -> ty <> 17 -> ty <> 18 ->
  format_value lk ty data = if 28 <=? ty then Ok ([35] ++ hex8 data) else Ok (sdec (fmt_int data)).
Proof.
  intros lk ty data Ht H17 H18. unfold format_value, TYPE_STRING, TYPE_ATTRIBUTE, TYPE_REFERENCE, TYPE_FLOAT, TYPE_INT_HEX, TYPE_INT_BOOLEAN,
    TYPE_DIMENSION, TYPE_FRACTION, TYPE_FIRST_COLOR_INT, TYPE_LAST_COLOR_INT, TYPE_FIRST_INT, TYPE_LAST_INT.
  rewrite !(proj2 (Z.eqb_neq ty _)), (proj2 (Z.leb_le ty 31)), (proj2 (Z.leb_le 16 ty)), andb_true_r by lia. reflexivity.
Qed.
Lemma fv_int_dec : forall lk ty data, 0 <= data < 4294967296 ->
  16 <= ty <= 27 -> ty <> 17 -> ty <> 18 ->
  format_value lk ty data = Ok (sdec (if data <? 2147483648 then data else data - 4294967296)).
Proof.
  intros lk ty data Hd Ht H17 H18. rewrite fv_int_types, (proj2 (Z.leb_gt 28 ty)), fmt_int_signed by lia. reflexivity.
Qed.
Lemma fv_hex_and_colour : forall lk ty data, (ty = 17 \/ 28 <= ty <= 31) ->
  format_value lk ty data = Ok ((if ty =? 17 then [48; 120] else [35]) ++ hex8 data).
Proof.
  intros lk ty data [->|Ht]; [reflexivity|]. rewrite fv_int_types, (proj2 (Z.leb_le 28 ty)), (proj2 (Z.eqb_neq ty 17)) by lia. reflexivity.
Qed.

Lemma fv_hex_digits_denote : forall k, 0 <= k < 2 ^ 32 -> length (hex8 k) = 8%nat /\ text_value 16 (hex8 k) = k.
Proof. intros k Hk. split; [apply hex8_length, Hk|apply hex8_value; lia]. Qed.

Lemma fv_reference_and_attribute : forall lk data, 0 <= data ->
  format_value lk TYPE_REFERENCE data =
    Ok ([64] ++ (if (16777216 <=? data) && (data <? 33554432) then S_android else []) ++ hex8 data) /\
  format_value lk TYPE_ATTRIBUTE data =
    Ok ([63] ++ (if (16777216 <=? data) && (data <? 33554432) then S_android else []) ++ hex8 data).
Proof. intros lk data _. unfold format_value. cbn. rewrite fmt_package_android. split; reflexivity. Qed.
