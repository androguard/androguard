(* C26 - _fix_value and _fix_name as modelled yield only permitted characters, and _fix_value leaves a clean value as it is;
   the stack machine tree_step, run over the events of a tree in document order (flatten), rebuilds that tree: induction
   over trees, the children already placed standing reversed in the open frame *)
From Coq Require Import ZArith List Bool Lia.
Require Import V.Lib.Val V.Lib.Result V.Axml.PoolModel V.Axml.AxmlModel.
Import ListNotations.
Open Scope Z_scope.

Lemma forallb_map_if (P : Z -> bool) d l : P d = true -> forallb P (map (fun c => if P c then c else d) l) = true.
Proof. intros Hd. induction l as [|c l IH]; [reflexivity|]. cbn [map forallb]. rewrite IH, andb_true_r. destruct (P c) eqn:E; [exact E | exact Hd]. Qed.
Lemma map_if_id {P : Z -> bool} {d l} : forallb P l = true -> map (fun c => if P c then c else d) l = l.
Proof. induction l as [|c l IH]; [reflexivity|]. cbn [forallb map]. intros H. apply andb_true_iff in H as [Hc Hl]. now rewrite Hc, IH. Qed.

Theorem fix_value_is_xml v : forallb xml_char (fix_value v) = true.
Proof. apply forallb_map_if. reflexivity. Qed.
Lemma until_nul_no_nul s : forallb (fun c => negb (c =? 0)) (until_nul s) = true.
Proof. induction s as [|c s IH]; [reflexivity|]. cbn [until_nul]. destruct (c =? 0) eqn:E; [reflexivity|]. cbn [forallb]. now rewrite E, IH. Qed.
Theorem fix_value_keeps_clean_values v : forallb xml_char v = true -> fix_value v = v.
Proof.
  intros H. unfold fix_value. replace (until_nul v) with v; [exact (map_if_id H)|].
  induction v as [|c v IH]; [reflexivity|]. cbn [forallb until_nul] in *. apply andb_true_iff in H as [H1 H2].
  destruct (Z.eqb_spec c 0) as [->|]; [discriminate H1 | now rewrite <- IH].
Qed.
Theorem fix_name_is_a_name nsmap prefix name p n : fix_name nsmap prefix name = Ok (p, n) -> forallb name_char n = true.
Proof.
  unfold fix_name. destruct (negb (ascii name)); [discriminate|]. destruct name as [|c0 r]; [discriminate|].
  match goal with |- (let '(a, b) := ?x in _) = _ -> _ => destruct x as [p2 n2] end.
  intros H. injection H as _ <-. now apply forallb_map_if.
Qed.

Definition tail_of (x : xml) : str := match x with El _ _ _ _ _ tl => tl end.
Definition strip_tail (x : xml) : xml := match x with El a b c d e _ => El a b c d e [] end.
(* the events of a tree in document order: the element opens, its text, then every child followed by its tail, it closes *)
Fixpoint flatten (x : xml) : list tevent :=
  match x with
  | El tag nsmap attrs text kids tl =>
      TStart tag nsmap attrs :: TText text :: flat_map (fun k => flatten k ++ [TText (tail_of k)]) kids ++ [TEnd]
  end.
Fixpoint run_events (es : list tevent) (t : tstate) : result tstate :=
  match es with [] => Ok t | e :: r => do t' <- tree_step e t; run_events r t' end.
Lemma run_events_app a b t : run_events (a ++ b) t = do t' <- run_events a t; run_events b t'.
Proof. revert t. induction a as [|e a IH]; intros t; cbn [app run_events bind]; [reflexivity|]. destruct (tree_step e t); cbn [bind]; [apply IH | reflexivity]. Qed.

Fixpoint xml_ind' (P : xml -> Prop)
  (H : forall tag nsmap attrs text kids tl, Forall P kids -> P (El tag nsmap attrs text kids tl)) (x : xml) : P x :=
  match x with
  | El tag nsmap attrs text kids tl =>
      H tag nsmap attrs text kids tl
        ((fix go (l : list xml) : Forall P l := match l with [] => Forall_nil P | k :: r => Forall_cons k (xml_ind' P H k) (go r) end) kids)
  end.

Definition placed (x : xml) (stk : list frame) (root : option xml) : tstate :=
  match stk with [] => ([], Some (strip_tail x)) | g :: rest => (add_kid g (strip_tail x) :: rest, root) end.
Lemma add_tail_strip x : add_tail (strip_tail x) (tail_of x) = x.
Proof. destruct x. reflexivity. Qed.

Lemma flatten_places : forall x stk root, (stk <> [] \/ root = None) -> run_events (flatten x) (stk, root) = Ok (placed x stk root).
Proof.
  intros x. pattern x. apply xml_ind'. clear x. intros tag nsmap attrs text kids tl IH stk root Hok.
  cbn [flatten run_events]. assert (S1 : tree_step (TStart tag nsmap attrs) (stk, root) =
    Ok ({| f_tag := tag; f_nsmap := nsmap; f_attrs := attrs; f_text := []; f_kids := [] |} :: stk, root)).
  { cbn [tree_step]. destruct stk as [|g r]; [|reflexivity]. destruct Hok as [X | ->]; [congruence | reflexivity]. }
  rewrite S1. cbn [bind tree_step add_text f_kids f_tag f_nsmap f_attrs f_text app].
  assert (K : forall done todo, Forall (fun k => forall stk root, (stk <> [] \/ root = None) -> run_events (flatten k) (stk, root) = Ok (placed k stk root)) todo ->
     run_events (flat_map (fun k => flatten k ++ [TText (tail_of k)]) todo ++ [TEnd])
       ({| f_tag := tag; f_nsmap := nsmap; f_attrs := attrs; f_text := text; f_kids := done |} :: stk, root)
     = Ok (placed (El tag nsmap attrs text (rev done ++ todo) tl) stk root)).
  { intros done todo. revert done. induction todo as [|k todo IHt]; intros done Hf.
    - cbn [flat_map app run_events tree_step]. rewrite app_nil_r. destruct stk as [|g r]; reflexivity.
    - inversion Hf as [|? ? Hk Hf']; subst. cbn [flat_map]. rewrite <- !app_assoc. rewrite run_events_app.
      rewrite Hk by (left; discriminate). cbn [bind placed]. cbn [app run_events tree_step bind add_kid f_kids f_tag f_nsmap f_attrs f_text add_text].
      rewrite add_tail_strip. rewrite (IHt (k :: done) Hf'). cbn [rev]. now rewrite <- app_assoc. }
  rewrite (K [] kids IH). reflexivity.
Qed.
Theorem tree_is_rebuilt x : tail_of x = [] -> run_events (flatten x) ([], None) = Ok ([], Some x).
Proof. intros H. rewrite flatten_places by (right; reflexivity). cbn [placed]. destruct x. cbn [tail_of] in H. subst. reflexivity. Qed.
