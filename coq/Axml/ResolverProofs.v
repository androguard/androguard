(* C29 - the resolver as modelled returns, because the ids outside the _resolving stack get fewer with every nested call, and
   the values it returns are exactly those reachable through references: a reachable value is reachable along a path that
   repeats no id, and along such a path no call finds its id on the stack *)
From Coq Require Import ZArith List Bool Lia.
Require Import V.Lib.Val V.Lib.Result V.Lib.ListFacts V.Axml.ResolverModel.
Import ListNotations.
Open Scope Z_scope.

Lemma memZ_In : forall x l, memZ x l = true <-> In x l.
Proof. exact existsb_eqb_In. Qed.
Lemma memZ_nIn : forall x l, memZ x l = false <-> ~ In x l.
Proof. exact existsb_eqb_nIn. Qed.

Definition values (l : list res) : list Z := flat_map flatten l.
Lemma values_app : forall a b, values (a ++ b) = values a ++ values b.
Proof. intros. unfold values. apply flat_map_app. Qed.

Lemma seqcat_ok {A} (f : A -> result (list res)) : forall xs, (forall x, In x xs -> exists a, f x = Ok a) -> exists b, seqcat (map f xs) = Ok b.
Proof.
  induction xs as [|x xs IH]; intros H; cbn [map seqcat]; [eauto|].
  destruct (H x) as [a ->]; [now left|]. destruct IH as [b ->]; [intros y Hy; apply H; now right | eauto].
Qed.
Lemma seqcat_map {A} (f : A -> result (list res)) : forall xs r, seqcat (map f xs) = Ok r ->
  (forall x, In x xs -> exists a, f x = Ok a) /\
  (forall v, In v (values r) <-> exists x a, In x xs /\ f x = Ok a /\ In v (values a)).
Proof.
  induction xs as [|x xs IH]; cbn [map seqcat]; intros r H.
  - injection H as <-. split; [intros x [] | intros v; split; [intros [] | intros (x & a & [] & _)]].
  - destruct (f x) as [a|] eqn:E; [|discriminate]. destruct (seqcat (map f xs)) as [b|]; [|discriminate]. injection H as <-.
    destruct (IH b eq_refl) as [T V]. split; [intros y [<-|Hy]; eauto|].
    intros v. rewrite values_app, in_app_iff, V. split.
    + intros [Hv | (y & c & Hy & Ey & Hv)]; [exists x, a | exists y, c]; cbn [In]; auto.
    + intros (y & c & [<-|Hy] & Ey & Hv); [left; congruence | right; eauto].
Qed.
Arguments seqcat_map {A f xs r}.

Section Proofs.
Variable tbl : table.
Variable wanted : option Z.
Notation U := (universe tbl).

Lemma resolve_unfold : forall f rs id, resolve_into tbl wanted (S f) rs id =
  if memZ id rs then Ok []
  else seqcat (map (put_ate (resolve_into tbl wanted f) (id :: rs) id) (lookup tbl wanted id)).
Proof. reflexivity. Qed.

Definition count_out (rs : list Z) : nat := length (filter (fun x => negb (memZ x rs)) U).

Lemma count_out_push : forall id rs, In id U -> ~ In id rs -> (count_out (id :: rs) < count_out rs)%nat.
Proof.
  intros id rs Hu Hr. apply (filter_length_mono_lt U id); [|exact Hu| |].
  - intros x _. rewrite !negb_true_iff, !memZ_nIn. cbn [In]. tauto.
  - apply negb_false_iff, memZ_In. now left.
  - now apply negb_true_iff, memZ_nIn.
Qed.

Lemma lookup_key_in_universe : forall id ce, In ce (lookup tbl wanted id) -> In id U.
Proof.
  intros id ce H. unfold lookup in H. destruct (find (fun p => fst p =? id) tbl) as [p|] eqn:E; [|destruct H].
  apply find_some in E as [Hin Heq%Z.eqb_eq]. apply in_flat_map. exists p. split; [exact Hin | now left].
Qed.

Lemma resolve_terminates : forall fuel rs id, (count_out rs < fuel)%nat ->
  exists l, resolve_into tbl wanted fuel rs id = Ok l.
Proof.
  induction fuel as [|f IH]; intros rs id Hc; [lia|]. rewrite resolve_unfold.
  destruct (memZ id rs) eqn:Hm; [eauto|]. apply memZ_nIn in Hm. apply seqcat_ok. intros [cfg e] Hin.
  assert (Hitem : forall cplx i, exists a, put_item (resolve_into tbl wanted f) (id :: rs) id cfg cplx i = Ok a).
  { intros cplx [r0|v]; cbn [put_item]; [|eauto]. destruct (r0 =? 0), (r0 =? id); eauto.
    apply IH. pose proof (count_out_push id rs (lookup_key_in_universe id _ Hin) Hm). lia. }
  unfold put_ate. destruct e as [i|its|v]; [apply Hitem | | eauto].
  destruct (seqcat_ok (put_item (resolve_into tbl wanted f) (id :: rs) id cfg true) its) as [b ->]; eauto.
Qed.

Theorem resolve_returns : forall id, id <> 0 ->
  exists l, resolve tbl wanted (S (length U)) id = Ok l.
Proof.
  intros id Hid. unfold resolve. destruct (Z.eqb_spec id 0); [contradiction|].
  apply resolve_terminates. unfold count_out. pose proof (filter_length_le (fun x => negb (memZ x [])) U). lia.
Qed.

Definition item_vals (i : item) : list Z := match i with IVal v => [v] | IRef _ => [] end.
Definition entry_vals (e : entry) : list Z :=
  match e with ESimple i => item_vals i | EComplex its => flat_map item_vals its | ECompact v => [v] end.

(* v is reachable from id: some entry returned for id holds v, or references a non-zero id from which v is reachable *)
Inductive reach : Z -> Z -> Prop :=
| reach_val : forall id cfg e v, In (cfg, e) (lookup tbl wanted id) -> In v (entry_vals e) -> reach id v
| reach_ref : forall id cfg e r v, In (cfg, e) (lookup tbl wanted id) -> In r (entry_refs e) -> r <> 0 ->
    reach r v -> reach id v.
(* ... along a reference path that repeats no id and avoids the ids in rs *)
Inductive spath : list Z -> Z -> Z -> Prop :=
| sp_val : forall rs id cfg e v, ~ In id rs -> In (cfg, e) (lookup tbl wanted id) -> In v (entry_vals e) -> spath rs id v
| sp_ref : forall rs id cfg e r v, ~ In id rs -> In (cfg, e) (lookup tbl wanted id) -> In r (entry_refs e) -> r <> 0 ->
    spath (id :: rs) r v -> spath rs id v.

Definition entry_items (e : entry) : list item := match e with ESimple i => [i] | EComplex its => its | ECompact v => [IVal v] end.
Lemma entry_vals_items e : entry_vals e = flat_map item_vals (entry_items e).
Proof. destruct e; cbn [entry_vals entry_items flat_map item_vals]; now rewrite ?app_nil_r. Qed.
Lemma entry_refs_items e : entry_refs e = flat_map item_refs (entry_items e).
Proof. destruct e; cbn [entry_refs entry_items flat_map item_refs]; now rewrite ?app_nil_r. Qed.
Lemma put_ate_items {rec rs id cfg e a} : put_ate rec rs id (cfg, e) = Ok a ->
  exists cplx b, seqcat (map (put_item rec rs id cfg cplx) (entry_items e)) = Ok b /\ values a = values b.
Proof.
  unfold put_ate, values. destruct e as [i|its|w]; cbn [entry_items map seqcat]; intros H.
  - exists false, (a ++ []). rewrite H. now rewrite app_nil_r.
  - exists true. destruct (seqcat _) as [b|x]; [|discriminate]. injection H as <-. exists b. cbn [flat_map flatten]. now rewrite app_nil_r.
  - exists false, [RPair cfg w]. now injection H as <-.
Qed.

Lemma put_item_cases (rec : list Z -> Z -> result (list res)) rs id cfg cplx i a : put_item rec rs id cfg cplx i = Ok a ->
  match i with
  | IVal w => values a = [w]
  | IRef r => if (r =? 0) || (r =? id) then a = [] else rec rs r = Ok a
  end.
Proof.
  destruct i as [r|w]; cbn [put_item]; [destruct (r =? 0), (r =? id); cbn [orb]; congruence|].
  intros [= <-]. now destruct cplx.
Qed.

Theorem resolve_sound : forall fuel rs id l, resolve_into tbl wanted fuel rs id = Ok l ->
  forall v, In v (values l) -> reach id v.
Proof.
  induction fuel as [|f IH]; intros rs id l H v Hv; [discriminate|]. rewrite resolve_unfold in H.
  destruct (memZ id rs); [inversion H; subst; destruct Hv|].
  apply (seqcat_map H) in Hv as ([cfg e] & a & Hce & Hput & Hva).
  destruct (put_ate_items Hput) as (cplx & b & Es & Ev). rewrite Ev in Hva.
  apply (seqcat_map Es) in Hva. destruct Hva as (i & a' & Hi & Hput' & Hva').
  apply put_item_cases in Hput'. destruct i as [r|w].
  - revert Hput'. destruct (Z.eqb_spec r 0) as [|Hr0], (r =? id); cbn [orb]; intros Hput'; try (subst a'; destruct Hva').
    eapply reach_ref; [exact Hce | | exact Hr0 | exact (IH _ _ _ Hput' v Hva')].
    rewrite entry_refs_items. apply in_flat_map. exists (IRef r). split; [exact Hi | now left].
  - rewrite Hput' in Hva'. destruct Hva' as [<-|[]]. eapply reach_val; [exact Hce|].
    rewrite entry_vals_items. apply in_flat_map. exists (IVal w). split; [exact Hi | now left].
Qed.

Lemma resolve_item {f rs id l cfg e i} : resolve_into tbl wanted (S f) rs id = Ok l -> ~ In id rs ->
  In (cfg, e) (lookup tbl wanted id) -> In i (entry_items e) ->
  exists cplx a, put_item (resolve_into tbl wanted f) (id :: rs) id cfg cplx i = Ok a /\ forall v, In v (values a) -> In v (values l).
Proof.
  intros H Hn Hce Hi. rewrite resolve_unfold in H. apply memZ_nIn in Hn. rewrite Hn in H.
  destruct (seqcat_map H) as [T V]. destruct (T _ Hce) as [a Ha].
  destruct (put_ate_items Ha) as (cplx & b & Es & Ev). exists cplx.
  destruct (seqcat_map Es) as [T' V']. destruct (T' _ Hi) as [a' Ha'].
  exists a'. split; [exact Ha'|]. intros v Hv. apply V. exists (cfg, e), a. rewrite Ev, V'. repeat split; [exact Hce | exact Ha | exists i, a'; auto].
Qed.

Lemma spath_out rs id v : spath rs id v -> ~ In id rs.
Proof. now destruct 1. Qed.
Theorem resolve_complete : forall rs id v, spath rs id v ->
  forall fuel l, resolve_into tbl wanted fuel rs id = Ok l -> In v (values l).
Proof.
  induction 1 as [rs id cfg e v Hn Hce Hv | rs id cfg e r v Hn Hce Hr Hr0 Hsp IH]; intros [|f] l H; try discriminate.
  - rewrite entry_vals_items in Hv. apply in_flat_map in Hv as (i & Hi & Hv). destruct i as [r|w]; [destruct Hv | destruct Hv as [<-|[]]].
    destruct (resolve_item H Hn Hce Hi) as (cplx & a & Ha & Hsub). apply Hsub.
    rewrite (put_item_cases _ _ _ _ _ _ _ Ha). now left.
  - rewrite entry_refs_items in Hr. apply in_flat_map in Hr as (i & Hi & Hr). destruct i as [r'|w]; [destruct Hr as [<-|[]] | destruct Hr].
    destruct (resolve_item H Hn Hce Hi) as (cplx & a & Ha & Hsub). apply Hsub.
    apply put_item_cases in Ha. apply spath_out in Hsp. cbn [In] in Hsp.
    rewrite (proj2 (Z.eqb_neq r' 0)), (proj2 (Z.eqb_neq r' id)) in Ha by (auto; intros ->; apply Hsp; now left). exact (IH _ _ Ha).
Qed.

(* Every reachable value is reachable along a path that repeats no id.
   walk rs n id v: v is held n references away from id, along ids outside rs. *)
Inductive walk (rs : list Z) : nat -> Z -> Z -> Prop :=
| w_val : forall id cfg e v, ~ In id rs -> In (cfg, e) (lookup tbl wanted id) -> In v (entry_vals e) -> walk rs 0 id v
| w_ref : forall n id cfg e r v, ~ In id rs -> In (cfg, e) (lookup tbl wanted id) -> In r (entry_refs e) -> r <> 0 ->
    walk rs n r v -> walk rs (S n) id v.

Lemma reach_walk : forall id v, reach id v -> exists n, walk [] n id v.
Proof.
  induction 1 as [id cfg e v H1 H2 | id cfg e r v H1 H2 H3 _ [n IH]];
    [exists 0%nat; eapply w_val | exists (S n); eapply w_ref]; eauto.
Qed.
(* a walk that comes back to x can be cut there: what is left starts at x and is no longer *)
Lemma walk_cut : forall {rs} x {n r v}, walk rs n r v -> walk (x :: rs) n r v \/ exists m, (m <= n)%nat /\ walk rs m x v.
Proof.
  intros rs x. assert (N : forall id, id <> x -> ~ In id rs -> ~ In id (x :: rs)) by (intros id Ne Hn [E|E]; auto).
  induction 1 as [id cfg e v Hn H1 H2 | n id cfg e r v Hn H1 H2 H3 Hw IH].
  - destruct (Z.eq_dec id x) as [->|Ne]; [right; exists 0%nat | left]; eauto using w_val.
  - destruct IH as [IH | (m & Hm & IH)]; [|right; exists m; auto].
    destruct (Z.eq_dec id x) as [->|Ne]; [right; exists (S n) | left]; eauto using w_ref.
Qed.
(* so the shortest walk from an id does not come back to it *)
Lemma walk_spath : forall n rs id v, walk rs n id v -> spath rs id v.
Proof.
  induction n as [n IH] using lt_wf_ind. intros rs id v H.
  destruct H as [id cfg e v Hn H1 H2 | m id cfg e r v Hn H1 H2 H3 Hw]; [eapply sp_val; eauto|].
  destruct (walk_cut id Hw) as [F | (k & Hk & F)]; [eapply sp_ref; eauto | apply (IH k); [lia | exact F]].
Qed.

Theorem reach_spath : forall id v, reach id v -> spath [] id v.
Proof. intros id v H. destruct (reach_walk id v H) as [n F]. exact (walk_spath n [] id v F). Qed.

(* the values returned are exactly the values reachable through references *)
Theorem resolve_exact : forall fuel id l, resolve_into tbl wanted fuel [] id = Ok l ->
  forall v, In v (values l) <-> reach id v.
Proof.
  intros fuel id l H v. split.
  - eapply resolve_sound. exact H.
  - intros Hr. eapply resolve_complete; [apply reach_spath, Hr|exact H].
Qed.
End Proofs.
