(* C26 - whole documents: the chunk decoders of AxmlChunks.v composed over ANY sequence of chunks, the loop of
   AXMLPrinter.__init__ as a fold over the decoded events, and the complete parser on the bytes of a document *)
From Coq Require Import ZArith List Bool Lia ZifyBool.
Require Import V.Lib.Val V.Lib.Result V.Axml.PoolModel V.Axml.PoolProofs V.Axml.AxmlModel V.Axml.AxmlProofs V.Axml.AxmlChunks V.Misc.TermModel.
Import ListNotations.
Open Scope Z_scope.

Inductive item :=
| INsStart (line comment prefix uri : Z)
| INsEnd (line comment prefix uri : Z)
| IStart (line comment ns name : Z) (attrs : list attr)
| IEnd (line comment ns name : Z)
| IText (line comment name x y : Z)
| IResMap (ids : list Z).

Definition start_body (ns name : Z) (attrs : list attr) : list Z :=
  b32 ns ++ b32 name ++ b16 20 ++ b16 20 ++ b32 (Z.of_nat (length attrs)) ++ b32 0 ++ flat_map attr_bytes attrs.
Definition encode_item (i : item) : list Z :=
  match i with
  | INsStart l c p u => node_chunk 256 l c (b32 p ++ b32 u)
  | INsEnd l c p u => node_chunk 257 l c (b32 p ++ b32 u)
  | IStart l c ns name attrs => node_chunk 258 l c (start_body ns name attrs)
  | IEnd l c ns name => node_chunk 259 l c (b32 ns ++ b32 name)
  | IText l c name x y => node_chunk 260 l c (b32 name ++ b32 x ++ b32 y)
  | IResMap ids => chunk_header 384 8 (8 + 4 * Z.of_nat (length ids)) ++ flat_map b32 ids
  end.
Definition encode_items (l : list item) : list Z := flat_map encode_item l.
Definition wf_item (i : item) : Prop :=
  match i with
  | INsStart l c p u | INsEnd l c p u | IEnd l c p u => fits32 l /\ fits32 c /\ fits32 p /\ fits32 u
  | IStart l c ns name attrs => fits32 l /\ fits32 c /\ fits32 ns /\ fits32 name /\ Forall wf_attr attrs /\ Z.of_nat (length attrs) < 65536 /\
                                16 + PoolModel.len (start_body ns name attrs) < 4294967296
  | IText l c name x y => fits32 l /\ fits32 c /\ fits32 name /\ fits32 x /\ fits32 y
  | IResMap ids => Forall (fun x => 0 <= x < 4294967296) ids /\ 8 + 4 * Z.of_nat (length ids) < 4294967296
  end.

(* what the chunks mean: the events in the order of the file, each with the resource map as it is when the event is
   delivered; namespace chunks and resource maps only change the state *)
Fixpoint events (l : list item) (ns : list (Z * Z)) (res : list Z) : list (event * list Z) :=
  match l with
  | [] => []
  | INsStart _ _ p u :: r => events r (ns ++ [(p, u)]) res
  | INsEnd _ _ p u :: r => events r (remove_first (p, u) ns) res
  | IResMap ids :: r => events r ns (res ++ ids)
  | IStart _ c n nm attrs :: r => (EStart n nm attrs c ns, res) :: events r ns res
  | IEnd _ _ n nm :: r => (EEnd n nm, res) :: events r ns res
  | IText _ _ nm _ _ :: r => (EText nm, res) :: events r ns res
  end.
Fixpoint final (l : list item) (ns : list (Z * Z)) (res : list Z) : list (Z * Z) * list Z :=
  match l with
  | [] => (ns, res)
  | INsStart _ _ p u :: r => final r (ns ++ [(p, u)]) res
  | INsEnd _ _ p u :: r => final r (remove_first (p, u) ns) res
  | IResMap ids :: r => final r ns (res ++ ids)
  | _ :: r => final r ns res
  end.
(* one call of _do_next: the chunks it passes over, the event it stops at, the chunks left *)
Fixpoint next_event (l : list item) (ns : list (Z * Z)) (res : list Z) : option (event * list item * list (Z * Z) * list Z) :=
  match l with
  | [] => None
  | INsStart _ _ p u :: r => next_event r (ns ++ [(p, u)]) res
  | INsEnd _ _ p u :: r => next_event r (remove_first (p, u) ns) res
  | IResMap ids :: r => next_event r ns (res ++ ids)
  | IStart _ c n nm attrs :: r => Some (EStart n nm attrs c ns, r, ns, res)
  | IEnd _ _ n nm :: r => Some (EEnd n nm, r, ns, res)
  | IText _ _ nm _ _ :: r => Some (EText nm, r, ns, res)
  end.

Definition item_event (i : item) (ns : list (Z * Z)) : option event :=
  match i with
  | IStart _ c n nm attrs => Some (EStart n nm attrs c ns)
  | IEnd _ _ n nm => Some (EEnd n nm)
  | IText _ _ nm _ _ => Some (EText nm)
  | _ => None
  end.
Definition item_ns (i : item) (ns : list (Z * Z)) : list (Z * Z) :=
  match i with INsStart _ _ p u => ns ++ [(p, u)] | INsEnd _ _ p u => remove_first (p, u) ns | _ => ns end.
Definition item_res (i : item) (res : list Z) : list Z := match i with IResMap ids => res ++ ids | _ => res end.
Lemma events_cons i r ns res :
  events (i :: r) ns res = match item_event i ns with Some e => (e, res) :: events r ns res | None => events r (item_ns i ns) (item_res i res) end.
Proof. destruct i; reflexivity. Qed.
Lemma final_cons i r ns res : final (i :: r) ns res = final r (item_ns i ns) (item_res i res).
Proof. destruct i; reflexivity. Qed.
Lemma next_event_cons i r ns res :
  next_event (i :: r) ns res = match item_event i ns with Some e => Some (e, r, ns, res) | None => next_event r (item_ns i ns) (item_res i res) end.
Proof. destruct i; reflexivity. Qed.

Lemma len_node_chunk ty l c body : PoolModel.len (node_chunk ty l c body) = 16 + PoolModel.len body.
Proof. unfold node_chunk. rewrite !len_app, len_header, !len_b32. lia. Qed.
Lemma len_encode_item_pos i : 8 <= PoolModel.len (encode_item i).
Proof.
  destruct i; cbn [encode_item]; [rewrite len_node_chunk .. | rewrite len_app, len_header];
    match goal with |- context [PoolModel.len ?y] => pose proof (len_nonneg y); lia end.
Qed.
Lemma encode_items_cons i l : encode_items (i :: l) = encode_item i ++ encode_items l.  Proof. reflexivity. Qed.
Lemma encode_items_app a b : encode_items (a ++ b) = encode_items a ++ encode_items b.
Proof. unfold encode_items. apply flat_map_app. Qed.
Lemma length_items_le l : Z.of_nat (length l) <= PoolModel.len (encode_items l).
Proof. rewrite <- Z.mul_1_l at 1. apply len_flat_map_ge, Forall_forall. intros i _. pose proof (len_encode_item_pos i). lia. Qed.

Definition st_at (pos : Z) (ns : list (Z * Z)) (res : list Z) : pstate := {| s_pos := pos; s_ns := ns; s_res := res |}.

Lemma do_next_item i pre rest ns res f fs : wf_item i -> PoolModel.len pre <> fs ->
  do_next (S f) (pre ++ encode_item i ++ rest) fs (st_at (PoolModel.len pre) ns res) =
  match item_event i ns with
  | Some e => Ok (Some e, st_at (PoolModel.len pre + PoolModel.len (encode_item i)) ns res)
  | None => do_next f (pre ++ encode_item i ++ rest) fs (st_at (PoolModel.len pre + PoolModel.len (encode_item i)) (item_ns i ns) (item_res i res))
  end.
Proof.
  intros W Hfs. assert (Hpos : s_pos (st_at (PoolModel.len pre) ns res) = PoolModel.len pre) by reflexivity.
  destruct i as [l c p u|l c p u|l c n nm attrs|l c n nm|l c nm x y|ids]; cbn [encode_item item_event item_ns item_res wf_item] in *.
  - rewrite (start_namespace_chunk pre rest fs _ f Hpos Hfs) by tauto. reflexivity.
  - rewrite (end_namespace_chunk pre rest fs _ f Hpos Hfs) by tauto. reflexivity.
  - unfold start_body in *. rewrite (start_element_chunk pre rest fs _ f Hpos Hfs) by tauto. rewrite len_node_chunk, Z.add_assoc. reflexivity.
  - rewrite (end_element_chunk pre rest fs _ f Hpos Hfs) by tauto. reflexivity.
  - rewrite (text_chunk pre rest fs _ f Hpos Hfs) by tauto. reflexivity.
  - rewrite (resource_map_chunk pre rest fs _ f Hpos Hfs) by tauto. rewrite len_app, len_header, len_b32s, Z.add_assoc. reflexivity.
Qed.

Theorem do_next_items : forall items pre rest ns res fuel fs,
  Forall wf_item items -> (length items < fuel)%nat -> fs = PoolModel.len pre + PoolModel.len (encode_items items) ->
  do_next fuel (pre ++ encode_items items ++ rest) fs (st_at (PoolModel.len pre) ns res) =
  match next_event items ns res with
  | Some (e, rem, ns', res') => Ok (Some e, st_at (fs - PoolModel.len (encode_items rem)) ns' res')
  | None => Ok (None, st_at fs (fst (final items ns res)) (snd (final items ns res)))
  end.
Proof.
  induction items as [|i r IH]; intros pre rest ns res fuel fs Hw Hf Efs; (destruct fuel as [|f]; [cbn [length] in Hf; lia|]).
  - cbn [next_event final fst snd do_next st_at s_pos]. subst fs. change (PoolModel.len (encode_items [])) with 0. rewrite Z.add_0_r, Z.eqb_refl. reflexivity.
  - apply Forall_cons_iff in Hw as [Wi Wr]. cbn [length] in Hf. rewrite encode_items_cons, len_app in Efs.
    pose proof (len_encode_item_pos i). pose proof (len_nonneg (encode_items r)).
    rewrite encode_items_cons, <- app_assoc, do_next_item, next_event_cons, final_cons by (trivial; lia). destruct (item_event i ns) as [e|].
    + unfold st_at. do 3 f_equal. lia.
    + rewrite <- len_app, (app_assoc pre). apply IH; [exact Wr | lia | rewrite len_app; lia].
Qed.

Lemma next_event_spec : forall items ns res,
  match next_event items ns res with
  | Some (e, rem, ns', res') => events items ns res = (e, res') :: events rem ns' res' /\ exists done, items = done ++ rem
  | None => events items ns res = []
  end.
Proof.
  induction items as [|i r IH]; intros ns res; [reflexivity|]. rewrite next_event_cons, events_cons. destruct (item_event i ns) as [e|].
  - split; [reflexivity | now exists [i]].
  - specialize (IH (item_ns i ns) (item_res i res)). destruct (next_event r _ _) as [[[[e rem] ns'] res']|]; [|exact IH].
    destruct IH as (E & dn & ->). split; [exact E | now exists (i :: dn)].
Qed.

Section Doc.
Variables (p : pool) (sysattr : list (Z * str)).
Fixpoint fold_on (evs : list (event * list Z)) (t : tstate) : result tstate :=
  match evs with [] => Ok t | (e, res) :: r => do t' <- on_event p sysattr res e t; fold_on r t' end.

Theorem run_doc_items : forall fuel items pre rest ns res t fs,
  Forall wf_item items -> fs = PoolModel.len pre + PoolModel.len (encode_items items) -> (length (events items ns res) < fuel)%nat ->
  run_doc fuel p sysattr (pre ++ encode_items items ++ rest) fs (st_at (PoolModel.len pre) ns res) t = fold_on (events items ns res) t.
Proof.
  induction fuel as [|f IH]; intros items pre rest ns res t fs Hw Efs Hf; [lia|]. cbn [run_doc].
  rewrite (do_next_items items pre rest ns res _ fs Hw) by (trivial; pose proof (length_items_le items); rewrite !app_length; unfold PoolModel.len in *; lia).
  pose proof (next_event_spec items ns res) as Sp. destruct (next_event items ns res) as [[[[e rem] ns'] res']|]; [|now rewrite Sp].
  destruct Sp as (Ev & dn & ->). rewrite Ev in *. cbn [bind st_at s_res fold_on length] in *. destruct (on_event p sysattr res' e t) as [t'|err]; [|reflexivity]. cbn [bind].
  rewrite encode_items_app, len_app in *. apply Forall_app in Hw as [_ Wr].
  replace (fs - PoolModel.len (encode_items rem)) with (PoolModel.len (pre ++ encode_items dn)) by (rewrite len_app; lia).
  rewrite <- app_assoc, (app_assoc pre). apply IH; [exact Wr | rewrite len_app; lia | lia].
Qed.

Lemma on_event_resolved res e te t : resolve p sysattr res e false = Ok te -> te <> TSkip -> on_event p sysattr res e t = tree_step te t.
Proof.
  intros R Hs. unfold on_event. destruct t as [stack root]. cbn [fst]. destruct stack as [|g stk]; [|rewrite R; reflexivity].
  destruct e as [ns name attrs comment nss|ns name|name].
  - (* a start event is resolved without a look at the stack *)
    cbn [resolve] in *. now rewrite R.
  - cbn [resolve bind] in *. destruct (if name =? NONE then Ok [] else gs p name) as [nm|err]; cbn [bind] in R; [|discriminate].
    destruct nm; injection R as <-; [congruence | reflexivity].
  - cbn [resolve bind] in *. destruct (if name =? NONE then Ok [] else gs p name) as [s|err]; cbn [bind] in R; [|discriminate].
    injection R as <-. reflexivity.
Qed.
Lemma fold_on_resolved evs tes : Forall2 (fun er te => resolve p sysattr (snd er) (fst er) false = Ok te) evs tes ->
  Forall (fun te => te <> TSkip) tes -> forall t, fold_on evs t = run_events tes t.
Proof.
  induction 1 as [|[e res] te evs tes R _ IH]; intros Hs t; [reflexivity|]. apply Forall_cons_iff in Hs as [Hs Hr].
  cbn [fold_on run_events fst snd] in *. rewrite (on_event_resolved res e te t R Hs). destruct (tree_step te t); cbn [bind]; [apply IH, Hr | reflexivity].
Qed.
End Doc.
Arguments fold_on_resolved {p sysattr evs tes}.

Lemma flatten_no_skip x : Forall (fun te => te <> TSkip) (flatten x).
Proof.
  induction x as [tag nsmap attrs text kids tl IH] using xml_ind'. cbn [flatten]. do 2 (constructor; [discriminate|]).
  apply Forall_app. split; [|repeat constructor; discriminate]. apply Forall_flat_map. eapply Forall_impl; [|exact IH].
  intros k Hk. apply Forall_app. split; [exact Hk | repeat constructor; discriminate].
Qed.

Definition doc_bytes (utf8_flag : bool) (ss : list str) (padding : list Z) (items : list item) : list Z :=
  let body := chunk_header 1 28 (pool_size utf8_flag ss padding) ++ pool_bytes utf8_flag ss padding ++ encode_items items in
  chunk_header 3 8 (8 + PoolModel.len body) ++ body.

Lemma length_events : forall items ns res, (length (events items ns res) <= length items)%nat.
Proof.
  induction items as [|i r IH]; intros ns res; [reflexivity|]. rewrite events_cons.
  destruct (item_event i ns); cbn [length]; [specialize (IH ns res) | specialize (IH (item_ns i ns) (item_res i res))]; lia.
Qed.

(* the complete parser on the bytes of a document: header, string pool (either encoding, any strings), any sequence of
   well-formed chunks whose events - strings resolved through that pool, the namespace list and the resource map as
   they are at that chunk - are the document-order events of the tree x: the parser returns exactly x *)
Theorem document_is_parsed (utf8_flag : bool) ss padding items sysattr x :
  Forall wf_item items ->
  28 + 4 * Z.of_nat (length ss) + PoolModel.len (concat (map (if utf8_flag return (str -> list Z) then entry8 else entry16) ss)) < 4294967296 ->
  PoolModel.len (doc_bytes utf8_flag ss padding items) < 4294967296 ->
  tail_of x = [] ->
  Forall2 (fun er te => resolve (pool_of utf8_flag ss padding) sysattr (snd er) (fst er) false = Ok te) (events items [] []) (flatten x) ->
  parse_axml sysattr (doc_bytes utf8_flag ss padding items) = Ok (Some x).
Proof.
  intros Hw Hp Hl Hx Hr. unfold parse_axml, doc_bytes in *.
  set (P := pool_size utf8_flag ss padding) in *. set (pb := pool_bytes utf8_flag ss padding) in *. set (E := encode_items items) in *.
  assert (LP : PoolModel.len pb = P - 8) by apply len_pool_bytes. assert (P28 : 28 <= P) by apply pool_size_ge. pose proof (len_nonneg E).
  rewrite len_app, len_header in Hl |- *. remember (8 + PoolModel.len (chunk_header 1 28 P ++ pb ++ E)) as T eqn:ET.
  assert (LT : T = 8 + P + PoolModel.len E) by (rewrite ET, !len_app, len_header; lia). replace (T <? 8) with false by lia.
  pose proof (arsc_header_at_exp [] 3 8 T) as A3. cbn [app] in A3. rewrite A3 by lia. cbn [bind Z.eqb Pos.eqb negb].
  replace (T <? T) with false by lia.
  rewrite (arsc_header_at_exp (chunk_header 3 8 T) 1 28 P) by lia. cbn [bind Z.eqb Pos.eqb negb].
  rewrite (pdropz_header (chunk_header 3 8 T) 1 28 P). unfold pb, P. rewrite parse_pool_exact by exact Hp. cbn [bind]. fold pb P.
  replace (chunk_header 3 8 T ++ chunk_header 1 28 P ++ pb ++ E) with ((chunk_header 3 8 T ++ chunk_header 1 28 P ++ pb) ++ E ++ [])
    by (now rewrite app_nil_r, <- !app_assoc).
  replace (8 + P) with (PoolModel.len (chunk_header 3 8 T ++ chunk_header 1 28 P ++ pb)) by (rewrite !len_app, !len_header; lia).
  rewrite (run_doc_items _ _ _ items _ [] [] [] _ T Hw).
  - rewrite (fold_on_resolved Hr (flatten_no_skip x)), tree_is_rebuilt by exact Hx. reflexivity.
  - fold E. rewrite !len_app, !len_header. lia.
  - pose proof (length_events items [] []). pose proof (length_items_le items). rewrite !app_length. unfold PoolModel.len, E in *. lia.
Qed.

Lemma resolve_text utf8_flag ss padding sysattr res name s : Forall (fits utf8_flag) ss -> PoolModel.nthz ss name = Some s -> name <> NONE ->
  resolve (pool_of utf8_flag ss padding) sysattr res (EText name) false = Ok (TText s).
Proof.
  intros Hf Hn Hne. cbn [resolve]. replace (name =? NONE) with false by lia. unfold gs. rewrite (pool_strings_exact utf8_flag ss padding name s Hf Hn). reflexivity.
Qed.
Lemma resolve_end utf8_flag ss padding sysattr res ns name c s : Forall (fits utf8_flag) ss -> PoolModel.nthz ss name = Some (c :: s) -> name <> NONE ->
  resolve (pool_of utf8_flag ss padding) sysattr res (EEnd ns name) false = Ok TEnd.
Proof.
  intros Hf Hn Hne. cbn [resolve]. replace (name =? NONE) with false by lia. unfold gs. rewrite (pool_strings_exact utf8_flag ss padding name (c :: s) Hf Hn). reflexivity.
Qed.

(* a concrete document meets the hypotheses: <a>foo</a>, UTF-16 pool ["a"; "foo"] *)
Definition ex_items : list item := [IStart 1 NONE NONE 0 []; IText 1 NONE 1 0 0; IEnd 1 NONE NONE 0].
Definition ex_tree : xml := El [97] [] [] [102; 111; 111] [] [].
Example document_example :
  Forall wf_item ex_items /\
  Forall2 (fun er te => resolve (pool_of false [[97]; [102; 111; 111]] []) [] (snd er) (fst er) false = Ok te) (events ex_items [] []) (flatten ex_tree) /\
  parse_axml [] (doc_bytes false [[97]; [102; 111; 111]] [] ex_items) = Ok (Some ex_tree).
Proof.
  assert (W : Forall wf_item ex_items).
  { unfold ex_items, NONE. repeat constructor; unfold fits32; cbn; lia. }
  assert (R : Forall2 (fun er te => resolve (pool_of false [[97]; [102; 111; 111]] []) [] (snd er) (fst er) false = Ok te) (events ex_items [] []) (flatten ex_tree)).
  { cbn [events ex_items flatten ex_tree flat_map app]. repeat constructor; vm_compute; reflexivity. }
  split; [exact W|]. split; [exact R|]. apply document_is_parsed; [exact W | vm_compute; reflexivity | vm_compute; reflexivity | reflexivity | exact R].
Qed.

(* element trees without attributes and namespaces, every string an index into the pool (NONE for "no string"):
   name, text, tail, children *)
Inductive ptree := PNode (name text tail : Z) (kids : list ptree).
Definition ptail (t : ptree) : Z := match t with PNode _ _ tl _ => tl end.
Fixpoint items_of (t : ptree) : list item :=
  match t with
  | PNode n tx _ kids =>
      IStart 0 NONE NONE n [] :: IText 0 NONE tx 0 0 :: flat_map (fun k => items_of k ++ [IText 0 NONE (ptail k) 0 0]) kids ++ [IEnd 0 NONE NONE n]
  end.
Section Plain.
Variable ss : list str.
Definition str_at (i : Z) : str := match PoolModel.nthz ss i with Some s => s | None => [] end.
Fixpoint tree_of (t : ptree) : xml :=
  match t with PNode n tx tl kids => El (str_at n) [] [] (str_at tx) (map tree_of kids) (str_at tl) end.
(* a name the printer leaves as it is: ASCII letters, digits, '.', '_', '-', starting with a letter or '_' *)
Definition plain_name (s : str) : Prop :=
  match s with [] => False | c :: _ => (is_alpha c || (c =? 95)) = true /\ forallb name_char s = true /\ ascii s = true end.
Definition text_index (i : Z) : Prop := i = NONE \/ (0 <= i < Z.of_nat (length ss)).
Fixpoint wf_ptree (t : ptree) : Prop :=
  match t with
  | PNode n tx tl kids =>
      0 <= n < Z.of_nat (length ss) /\ plain_name (str_at n) /\ text_index tx /\ text_index tl /\
      (fix all (l : list ptree) : Prop := match l with [] => True | k :: r => wf_ptree k /\ all r end) kids
  end.

Fixpoint ptree_ind' (P : ptree -> Prop) (H : forall n tx tl kids, Forall P kids -> P (PNode n tx tl kids)) (t : ptree) : P t :=
  match t with
  | PNode n tx tl kids =>
      H n tx tl kids ((fix go (l : list ptree) : Forall P l := match l with [] => Forall_nil P | k :: r => Forall_cons k (ptree_ind' P H k) (go r) end) kids)
  end.
End Plain.

Lemma split_colon_none s : forallb name_char s = true -> split_colon s = None.
Proof.
  induction s as [|c r IH]; [reflexivity|]. cbn [forallb split_colon]. intros H. apply andb_true_iff in H as [Hc Hr].
  destruct (c =? 58) eqn:E; [apply Z.eqb_eq in E; subst c; discriminate Hc|]. now rewrite (IH Hr).
Qed.
Lemma fix_name_plain s : plain_name s -> fix_name [] [] s = Ok ([], s).
Proof.
  destruct s as [|c r]; [contradiction|]. intros (H1 & H2 & H3). unfold fix_name. rewrite H3, <- negb_orb, H1. cbn [negb assoc_str]. rewrite (split_colon_none _ H2). now rewrite (map_if_id H2).
Qed.

Definition ev_only (l : list item) : Prop := Forall (fun i => match i with IStart _ _ _ _ _ | IEnd _ _ _ _ | IText _ _ _ _ _ => True | _ => False end) l.
Lemma events_app_ev {a b ns res} : ev_only a -> events (a ++ b) ns res = events a ns res ++ events b ns res.
Proof.
  induction a as [|i a IH]; intros H; [reflexivity|]. apply Forall_cons_iff in H as [Hi Ha].
  destruct i; try contradiction; cbn [app events]; now rewrite (IH Ha).
Qed.
Lemma ev_only_items_of t : ev_only (items_of t).
Proof.
  induction t as [n tx tl kids IH] using ptree_ind'. cbn [items_of]. do 2 (constructor; [exact I|]). apply Forall_app. split; [|repeat constructor].
  apply Forall_flat_map. eapply Forall_impl; [|exact IH]. intros k Hk. apply Forall_app. split; [exact Hk | repeat constructor].
Qed.

Section PlainProofs.
Variables (utf8_flag : bool) (ss : list str) (padding : list Z) (sysattr : list (Z * str)).
Hypothesis Hfits : Forall (fits utf8_flag) ss.
Hypothesis Hcount : Z.of_nat (length ss) < NONE.
Let p := pool_of utf8_flag ss padding.

(* with every string of the pool decodable, getString is total: the string of the index, or nothing *)
Lemma gs_str_at i : gs p i = Ok (str_at ss i).
Proof using Hfits.
  unfold gs, str_at. destruct (PoolModel.nthz ss i) as [s|] eqn:E; [exact (pool_strings_exact utf8_flag ss padding i s Hfits E)|].
  apply pool_index_outside. cbn [p pool_of p_count]. unfold PoolModel.nthz in E.
  destruct ((i <? 0) || (Z.of_nat (length ss) <=? i)) eqn:T; [lia|]. apply nth_error_None in E. lia.
Qed.
Lemma str_at_none : str_at ss NONE = [].
Proof. unfold str_at, PoolModel.nthz. replace ((NONE <? 0) || (Z.of_nat (length ss) <=? NONE)) with true by (unfold NONE in *; lia). reflexivity. Qed.
Lemma gs_opt i : (if i =? NONE then Ok [] else gs p i) = Ok (str_at ss i).
Proof. destruct (i =? NONE) eqn:E; [apply Z.eqb_eq in E; subst; now rewrite str_at_none | apply gs_str_at]. Qed.
Lemma resolve_text_index res i : text_index ss i -> resolve p sysattr res (EText i) false = Ok (TText (str_at ss i)).
Proof. intros _. cbn [resolve]. now rewrite gs_opt. Qed.
Lemma resolve_end_plain res ns n : 0 <= n < Z.of_nat (length ss) -> plain_name (str_at ss n) -> resolve p sysattr res (EEnd ns n) false = Ok TEnd.
Proof. intros _ Hp. cbn [resolve]. rewrite gs_opt. cbn [bind]. destruct (str_at ss n); [contradiction | reflexivity]. Qed.
Lemma resolve_start_plain res n : 0 <= n < Z.of_nat (length ss) -> plain_name (str_at ss n) ->
  resolve p sysattr res (EStart NONE n [] NONE []) false = Ok (TStart (str_at ss n) [] []).
Proof.
  intros _ Hp. cbn [resolve]. rewrite gs_opt. cbn [bind]. destruct (str_at ss n) as [|c r] eqn:E; [contradiction|].
  rewrite Z.eqb_refl. cbn [negb bind build_nsmap print_ns build_attrs]. now rewrite (fix_name_plain (c :: r) Hp).
Qed.

Lemma tail_of_tree_of t : tail_of (tree_of ss t) = str_at ss (ptail t).
Proof. destruct t. reflexivity. Qed.
Lemma wf_text i : text_index ss i -> wf_item (IText 0 NONE i 0 0).
Proof. unfold text_index, wf_item, fits32, NONE in *. lia. Qed.
Lemma wf_ptree_tail k : wf_ptree ss k -> text_index ss (ptail k).
Proof. destruct k. cbn [wf_ptree ptail]. tauto. Qed.

Lemma plain_resolved : forall t res, wf_ptree ss t ->
  Forall2 (fun er te => resolve p sysattr (snd er) (fst er) false = Ok te) (events (items_of t) [] res) (flatten (tree_of ss t)).
Proof.
  induction t as [n tx tl kids IH] using ptree_ind'. intros res (Hn & Hp & Htx & Htl & Hk). cbn [items_of events tree_of flatten].
  constructor; [exact (resolve_start_plain res n Hn Hp)|]. constructor; [exact (resolve_text_index res tx Htx)|].
  induction kids as [|k kids IHk]; cbn [flat_map map app events].
  - constructor; [exact (resolve_end_plain res NONE n Hn Hp) | constructor].
  - apply Forall_cons_iff in IH as [Pk Pr]. destruct Hk as [Wk Wr]. rewrite <- !app_assoc, (events_app_ev (ev_only_items_of k)).
    apply Forall2_app; [exact (Pk res Wk)|]. constructor; [|exact (IHk Pr Wr)].
    cbn [fst snd]. rewrite tail_of_tree_of. apply resolve_text_index, wf_ptree_tail, Wk.
Qed.

Lemma wf_items_of : forall t, wf_ptree ss t -> Forall wf_item (items_of t).
Proof.
  induction t as [n tx tl kids IH] using ptree_ind'. intros (Hn & Hp & Htx & Htl & Hk). cbn [items_of].
  constructor. { cbn [wf_item length]. change (PoolModel.len (start_body NONE n [])) with 20. unfold fits32, NONE in *. repeat split; try constructor; lia. }
  constructor; [exact (wf_text tx Htx)|]. apply Forall_app. split; [|repeat constructor; unfold fits32, NONE in *; lia].
  induction kids as [|k kids IHk]; [constructor|]. apply Forall_cons_iff in IH as [Pk Pr]. destruct Hk as [Wk Wr]. cbn [flat_map].
  rewrite !Forall_app. repeat split; [exact (Pk Wk) | constructor; [apply wf_text, wf_ptree_tail, Wk | constructor] | exact (IHk Pr Wr)].
Qed.

(* every such tree - any shape, any depth, any texts and tails, either pool encoding - is what the parser returns for the
   bytes of its document *)
Theorem plain_document_round_trip t : wf_ptree ss t -> ptail t = NONE ->
  28 + 4 * Z.of_nat (length ss) + PoolModel.len (concat (map (if utf8_flag then entry8 else entry16) ss)) < 4294967296 ->
  PoolModel.len (doc_bytes utf8_flag ss padding (items_of t)) < 4294967296 ->
  parse_axml sysattr (doc_bytes utf8_flag ss padding (items_of t)) = Ok (Some (tree_of ss t)).
Proof.
  intros Hw Ht Hp Hl. apply (document_is_parsed utf8_flag ss padding (items_of t) sysattr (tree_of ss t) (wf_items_of t Hw) Hp Hl).
  - rewrite tail_of_tree_of, Ht. apply str_at_none.
  - exact (plain_resolved t [] Hw).
Qed.
End PlainProofs.

(* <a>foo<b/>bar</a> with the pool ["a"; "b"; "foo"; "bar"], UTF-8 *)
Definition ex_ss : list str := [[97]; [98]; [102; 111; 111]; [98; 97; 114]].
Definition ex_ptree : ptree := PNode 0 2 NONE [PNode 1 NONE 3 []].
Example plain_example :
  wf_ptree ex_ss ex_ptree /\ Forall (fits true) ex_ss /\
  tree_of ex_ss ex_ptree = El [97] [] [] [102; 111; 111] [El [98] [] [] [] [] [98; 97; 114]] [] /\
  parse_axml [] (doc_bytes true ex_ss [0; 0] (items_of ex_ptree)) = Ok (Some (tree_of ex_ss ex_ptree)).
Proof.
  assert (W : wf_ptree ex_ss ex_ptree).
  { cbn [wf_ptree ex_ptree ex_ss length]. unfold text_index, NONE, plain_name, str_at. cbn.
    repeat split; try lia; try reflexivity; try (right; lia); try (left; reflexivity); try discriminate. }
  assert (F : Forall (fits true) ex_ss).
  { unfold ex_ss. repeat constructor; unfold valid_cp; try lia; vm_compute; reflexivity. }
  split; [exact W|]. split; [exact F|]. split; [reflexivity|].
  apply plain_document_round_trip; [exact F | vm_compute; reflexivity | exact W | reflexivity | vm_compute; reflexivity | vm_compute; reflexivity].
Qed.
