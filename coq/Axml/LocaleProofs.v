(* C30 - proofs about the locale model: the packed 16-bit field relative to its base (bit fields as arithmetic),
   two plain bytes, a lemma about str.split("-r") on strings without '-', and the byte-field arithmetic of the
   32-bit locale. *)
From Coq Require Import ZArith List Bool Lia.
Require Import V.Lib.Bits V.Lib.Val V.Axml.LocaleModel.
Import ListNotations.
Open Scope Z_scope.

Lemma in_rng_spec lo hi c : in_rng lo hi c = true <-> lo <= c <= hi.
Proof. unfold in_rng. rewrite andb_true_iff, !Z.leb_le. tauto. Qed.
Lemma list3_eq (a b c a' b' c' : Z) : a = a' -> b = b' -> c = c' -> [a; b; c] = [a'; b'; c'].
Proof. now intros -> -> ->. Qed.

(* The base (97 for a language, 48 for a region) is only an offset: pack subtracts it from each character, unpack adds
   it to each five-bit number.  So the packed form is studied once, at base 0. *)
Definition shift (base : Z) (s : list Z) : list Z := map (fun x => x + base) s.
Lemma pack_shift base i j k : pack (shift base [i; j; k]) base = pack [i; j; k] 0.
Proof.
  cbn [shift map pack]. now rewrite !Z.add_simpl_r, !Z.sub_0_r.
Qed.
Lemma unpack_shift {b0 b1 base} : Z.land b0 128 =? 0 = false -> unpack b0 b1 base = shift base (unpack b0 b1 0).
Proof. unfold unpack. intros ->. cbn [negb shift map]. now rewrite !Z.add_0_r. Qed.
Lemma code3_shift base s : code3_ok 0 s = true -> code3_ok base (shift base s) = true.
Proof.
  destruct s as [|x [|y [|z [|w s]]]]; try discriminate. cbn [shift map code3_ok].
  rewrite !andb_true_iff, !in_rng_spec. lia.
Qed.

(* the mask of bits 2-6, as arithmetic (the others are in Lib/Bits.v) *)
Lemma land124 b : Z.land b 124 = b / 4 mod 32 * 4.
Proof. change 124 with (Z.shiftl (Z.ones 5) 2). rewrite land_shl_mask, land_ones_mod by lia. shrc 2 4. shlc 2 4. reflexivity. Qed.

(* bits 0-4 of the second byte, bits 5-7 of the second with bits 0-1 of the first, bits 2-6 of the first *)
Definition packed (b0 b1 : Z) : bool := in_rng 128 255 b0 && in_rng 0 255 b1.
Lemma packed_spec b0 b1 : packed b0 b1 = true <-> 128 <= b0 <= 255 /\ 0 <= b1 <= 255.
Proof. unfold packed. now rewrite andb_true_iff, !in_rng_spec. Qed.
Lemma field_ok_packed b0 b1 : field_ok b0 b1 = packed b0 b1 || code2_ok [b0; b1].
Proof. reflexivity. Qed.
Lemma unpack_packed {b0 b1} : packed b0 b1 = true ->
  Z.land b0 128 =? 0 = false /\ unpack b0 b1 0 = [b1 mod 32; b1 / 32 + b0 mod 4 * 8; b0 / 4 mod 32].
Proof.
  rewrite packed_spec. intros [H0 H1].
  assert (N : Z.land b0 128 =? 0 = false) by (rewrite land128 by lia; replace (b0 <? 128) with false by lia; reflexivity).
  split; [exact N|]. unfold unpack. rewrite N. cbn [negb]. rewrite land224, land124 by lia.
  change 31 with (Z.ones 5). change 3 with (Z.ones 2) at 1. rewrite !land_ones_mod by lia. change (2 ^ 5) with 32. change (2 ^ 2) with 4. shrc 5 32. shlc 3 8. shrc 2 4. rewrite !Z.add_0_r. apply list3_eq; lia.
Qed.
Lemma pack_small i j k : 0 <= i < 32 -> 0 <= j < 32 -> 0 <= k < 32 -> pack [i; j; k] 0 = (128 + k * 4 + j / 8, j mod 8 * 32 + i).
Proof.
  intros Hi Hj Hk. cbn [pack]. rewrite !Z.sub_0_r, !land127, (Z.mod_small i), (Z.mod_small j), (Z.mod_small k) by lia. f_equal.
  - change (Z.lor 128 (Z.shiftl k 2)) with (Z.lor (Z.shiftl (Z.shiftl 1 5) 2) (Z.shiftl k 2)). rewrite <- Z.shiftl_lor, (Z.lor_comm _ k). lorc 5 32.
    shrc 3 8. rewrite Z.lor_comm. lorc 2 4. lia.
  - rewrite Z.lor_comm. lorc 5 32. rewrite land255. lia.
Qed.

Lemma packed_code base i j k : 0 <= i < 32 -> 0 <= j < 32 -> 0 <= k < 32 ->
  let p := pack (shift base [i; j; k]) base in
  unpack (fst p) (snd p) base = shift base [i; j; k] /\ packed (fst p) (snd p) = true.
Proof.
  intros Hi Hj Hk. rewrite pack_shift, pack_small by assumption. cbn [fst snd].
  assert (P : packed (128 + k * 4 + j / 8) (j mod 8 * 32 + i) = true) by (apply packed_spec; lia).
  split; [|exact P]. destruct (unpack_packed P) as [N U]. rewrite (unpack_shift N), U. cbn [shift map]. apply list3_eq; lia.
Qed.
Lemma packed_field base b0 b1 : packed b0 b1 = true ->
  pack (unpack b0 b1 base) base = (b0, b1) /\ code3_ok base (unpack b0 b1 base) = true.
Proof.
  intros P. destruct (unpack_packed P) as [N U]. apply packed_spec in P.
  rewrite (unpack_shift N), U. split.
  - rewrite pack_shift, pack_small by lia. f_equal; lia.
  - apply code3_shift. cbn [code3_ok]. rewrite !andb_true_iff, !in_rng_spec. lia.
Qed.

Lemma code3_shape base s : code3_ok base s = true ->
  exists i j k, s = shift base [i; j; k] /\ 0 <= i < 32 /\ 0 <= j < 32 /\ 0 <= k < 32.
Proof.
  destruct s as [|x [|y [|z [|w s]]]]; simpl; try discriminate. intros H.
  rewrite !andb_true_iff, !in_rng_spec in H. destruct H as [[Hx Hy] Hz].
  exists (x - base), (y - base), (z - base). split; [apply list3_eq; lia | lia].
Qed.
Lemma code2_shape s : code2_ok s = true ->
  exists a b, s = [a; b] /\ 1 <= a <= 127 /\ 1 <= b <= 255 /\ a <> 45 /\ b <> 45.
Proof.
  destruct s as [|a [|b [|c s]]]; simpl; try discriminate. intros H.
  rewrite !andb_true_iff, !in_rng_spec, !negb_true_iff, !Z.eqb_neq in H.
  exists a, b. intuition.
Qed.
Lemma unpack_plain a b base : 1 <= a <= 127 -> 1 <= b -> unpack a b base = [a; b].
Proof.
  intros Ha Hb. unfold unpack. rewrite land128 by lia. replace (a <? 128) with true by lia. cbn [Z.eqb negb].
  now replace (a =? 0) with false by lia; replace (b =? 0) with false by lia.
Qed.

Lemma code_roundtrip base s : code_ok base s = true ->
  unpack (fst (pack s base)) (snd (pack s base)) base = s /\
  field_ok (fst (pack s base)) (snd (pack s base)) = true.
Proof.
  intros H. unfold code_ok in H. apply orb_true_iff in H as [H|H].
  - destruct (code2_shape _ H) as (a & b & -> & Ha & Hb & _). cbn [pack fst snd].
    split; [apply unpack_plain; lia | now rewrite field_ok_packed, H, orb_true_r].
  - apply code3_shape in H as (i & j & k & -> & Hi & Hj & Hk).
    destruct (packed_code base i j k Hi Hj Hk) as [U P]. split; [exact U | now rewrite field_ok_packed, P].
Qed.

Lemma field_bytes {a b} : field_ok a b = true -> 1 <= a < 256 /\ 0 <= b < 256.
Proof.
  unfold field_ok. rewrite orb_true_iff, andb_true_iff, !in_rng_spec. intros [H|H]; [lia|].
  apply code2_shape in H as (a' & b' & [= <- <-] & H). lia.
Qed.
Lemma field_roundtrip base a b : field_ok a b = true ->
  pack (unpack a b base) base = (a, b) /\ code_ok base (unpack a b base) = true.
Proof.
  intros H. rewrite field_ok_packed in H. unfold code_ok. destruct (packed a b) eqn:P.
  - destruct (packed_field base a b P) as [-> ->]. now rewrite orb_true_r.
  - cbn [orb] in H. destruct (code2_shape _ H) as (a' & b' & [= <- <-] & Ha & Hb & _).
    rewrite unpack_plain by lia. now rewrite H.
Qed.

Lemma code_no45 base s : 45 < base -> code_ok base s = true -> ~ In 45 s /\ nonempty s = true.
Proof.
  intros Hb H. unfold code_ok in H. apply orb_true_iff in H as [H|H].
  - apply code2_shape in H as (a & b & -> & H). split; [simpl; lia | reflexivity].
  - apply code3_shape in H as (i & j & k & -> & H). split; [cbn [shift map In]; lia | reflexivity].
Qed.

Lemma split_go_skip : forall l k acc, ~ In 45 l -> split_go acc (l ++ k) = split_go (rev l ++ acc) k.
Proof.
  induction l as [|c t IH]; intros k acc H; [reflexivity|]. cbn [rev]. rewrite <- app_assoc, <- IH by (intros X; apply H; now right).
  cbn [app split_go]. destruct (t ++ k); [reflexivity|]. replace (c =? 45) with false; [reflexivity|].
  symmetry. apply Z.eqb_neq. intros ->. apply H. now left.
Qed.
Lemma split_plain l : ~ In 45 l -> split_r l = [l].
Proof. intros H. unfold split_r. rewrite <- (app_nil_r l) at 1. rewrite split_go_skip by exact H. cbn [split_go]. now rewrite app_nil_r, rev_involutive. Qed.
Lemma split_pair l r : ~ In 45 l -> ~ In 45 r -> split_r (l ++ [45; 114] ++ r) = [l; r].
Proof.
  intros Hl Hr. unfold split_r. rewrite split_go_skip by exact Hl. cbn [app split_go Z.eqb Pos.eqb andb].
  rewrite app_nil_r, rev_involutive. f_equal. exact (split_plain r Hr).
Qed.

Lemma lor_fields l0 l1 r0 r1 :
  0 <= l0 < 256 -> 0 <= l1 < 256 -> 0 <= r0 < 256 -> 0 <= r1 < 256 ->
  Z.lor (Z.lor (Z.lor l0 (Z.shiftl l1 8)) (Z.shiftl r0 16)) (Z.shiftl r1 24) = locale_of l0 l1 r0 r1.
Proof.
  intros H0 H1 H2 H3. unfold locale_of.
  lorc 8 256. lorc 16 65536. lorc 24 16777216. reflexivity.
Qed.
Lemma get_fields l0 l1 r0 r1 :
  0 <= l0 < 256 -> 0 <= l1 < 256 -> 0 <= r0 < 256 -> 0 <= r1 < 256 ->
  let L := locale_of l0 l1 r0 r1 in
  Z.land L 255 = l0 /\ Z.shiftr (Z.land L 65280) 8 = l1 /\
  Z.shiftr (Z.land L 16711680) 16 = r0 /\ Z.shiftr (Z.land L 4278190080) 24 = r1.
Proof.
  intros H0 H1 H2 H3 L. subst L. unfold locale_of. rewrite !Z.shiftr_land.
  change (Z.shiftr 65280 8) with 255. change (Z.shiftr 16711680 16) with 255.
  change (Z.shiftr 4278190080 24) with 255. rewrite !land255.
  shrc 8 256. shrc 16 65536. shrc 24 16777216. repeat split; lia.
Qed.

Lemma unpack_zero base : unpack 0 0 base = [].
Proof. reflexivity. Qed.

Lemma set_of_codes lang region : code_ok 97 lang = true -> region_ok region = true ->
  set_lr (render lang region) =
    locale_of (fst (pack lang 97)) (snd (pack lang 97))
      (match region with Some r => fst (pack r 48) | None => 0 end)
      (match region with Some r => snd (pack r 48) | None => 0 end).
Proof.
  intros Hl Hr. pose proof (code_no45 97 lang eq_refl Hl) as [Nl _].
  pose proof (code_roundtrip 97 lang Hl) as [_ Fl]. apply field_bytes in Fl.
  unfold set_lr. destruct region as [r|]; cbn [render region_ok] in *.
  - pose proof (code_no45 48 r eq_refl Hr) as [Nr Er].
    pose proof (code_roundtrip 48 r Hr) as [_ Fr]. apply field_bytes in Fr.
    rewrite split_pair, Er by assumption. destruct (pack lang 97), (pack r 48). apply lor_fields; cbn [fst snd] in *; lia.
  - rewrite split_plain by assumption. destruct (pack lang 97). apply lor_fields; cbn [fst snd] in *; lia.
Qed.

Lemma get_of_fields l0 l1 r0 r1 : field_ok l0 l1 = true ->
  (field_ok r0 r1 = true \/ (r0 = 0 /\ r1 = 0)) ->
  get_lr (locale_of l0 l1 r0 r1) =
    render (unpack l0 l1 97) (if field_ok r0 r1 then Some (unpack r0 r1 48) else None).
Proof.
  intros Fl Fr. pose proof (field_bytes Fl) as Bl.
  assert (Br : 0 <= r0 < 256 /\ 0 <= r1 < 256)
    by (destruct Fr as [Fr|[-> ->]]; [apply field_bytes in Fr|]; lia).
  unfold get_lr. destruct (Z.eqb_spec (locale_of l0 l1 r0 r1) 0) as [E|_]; [unfold locale_of in E; lia|].
  destruct (get_fields l0 l1 r0 r1) as (-> & -> & -> & ->); try lia.
  destruct Fr as [Fr|[-> ->]].
  - rewrite Fr. destruct (field_roundtrip 48 r0 r1 Fr) as [_ C].
    apply (code_no45 48 _ eq_refl) in C. destruct C as [_ ->]. reflexivity.
  - reflexivity.
Qed.

Lemma get_set lang region : code_ok 97 lang = true -> region_ok region = true ->
  get_lr (set_lr (render lang region)) = render lang region.
Proof.
  intros Hl Hr. rewrite set_of_codes by assumption.
  destruct (code_roundtrip 97 lang Hl) as [Ul Fl].
  destruct region as [r|]; cbn [region_ok] in Hr.
  - destruct (code_roundtrip 48 r Hr) as [Ur Fr].
    rewrite get_of_fields by (try left; assumption). rewrite Fr, Ul, Ur. reflexivity.
  - rewrite get_of_fields by (try right; auto). rewrite Ul. reflexivity.
Qed.

Lemma set_get l0 l1 r0 r1 : field_ok l0 l1 = true ->
  (field_ok r0 r1 = true \/ (r0 = 0 /\ r1 = 0)) ->
  set_lr (get_lr (locale_of l0 l1 r0 r1)) = locale_of l0 l1 r0 r1.
Proof.
  intros Fl Fr. rewrite get_of_fields by assumption.
  destruct (field_roundtrip 97 l0 l1 Fl) as [Pl Cl].
  destruct Fr as [Fr|[-> ->]].
  - destruct (field_roundtrip 48 r0 r1 Fr) as [Pr Cr].
    rewrite Fr. rewrite set_of_codes by assumption. rewrite Pl, Pr. reflexivity.
  - change (field_ok 0 0) with false. cbv iota. rewrite set_of_codes by (auto). rewrite Pl. reflexivity.
Qed.

Lemma default_locale : get_lr 0 = [0; 0] /\ set_lr [0; 0] = 0.
Proof. split; reflexivity. Qed.
