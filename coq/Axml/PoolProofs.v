(* C26 / C28 / C31 - proofs about coq/Axml/PoolModel.v: every string stored in a string pool, UTF-16 or UTF-8, with a one-
   or a two-unit length prefix, is read back exactly by getString.  The lemmas on lengths (the rewrite set len), on
   positions in a buffer (tail_at) and on chunk headers (header_at) are what the proofs about binary XML and about resource
   tables share. *)
From Coq Require Import ZArith List Bool Lia ZifyBool.
Require Import V.Lib.Val V.Lib.Result V.Lib.Bits V.Axml.PoolModel.
Require V.Misc.TermModel.
Import ListNotations.
Open Scope Z_scope.

Lemma len_app (a b : list Z) : len (a ++ b) = len a + len b.
Proof. unfold len. rewrite app_length. lia. Qed.
Lemma len_nonneg (a : list Z) : 0 <= len a.  Proof. unfold len. lia. Qed.
Lemma len_cons x (l : list Z) : len (x :: l) = 1 + len l.  Proof. unfold len. cbn [length]. lia. Qed.
Lemma len_nil : len [] = 0.  Proof. reflexivity. Qed.
Lemma len_flat_map {A} (f : A -> list Z) k l : (forall x, len (f x) = k) -> len (flat_map f l) = k * Z.of_nat (length l).
Proof. intros H. induction l as [|x l IH]; cbn [flat_map length]; rewrite ?len_app, ?H, ?IH, ?len_nil; lia. Qed.
Lemma len_flat_map_ge {A} (f : A -> list Z) k l : Forall (fun x => k <= len (f x)) l -> k * Z.of_nat (length l) <= len (flat_map f l).
Proof. induction 1 as [|x l H _ IH]; cbn [flat_map length]; rewrite ?len_app, ?len_nil; lia. Qed.
(* the lengths of encoded pieces: a rewrite set that turns the length of a layout into a sum *)
#[export] Hint Rewrite len_app len_cons len_nil : len.

Lemma dropz_app pre l : dropz (len pre) (pre ++ l) = l.
Proof.
  induction pre as [|x pre IH]; [destruct l; reflexivity|]. cbn [app dropz]. rewrite len_cons, Z.add_simpl_l, IH. pose proof (len_nonneg pre).
  now replace (1 + len pre <=? 0) with false by lia.
Qed.
Lemma takez_app a l : takez (len a) (a ++ l) = a.
Proof.
  induction a as [|x a IH]; [destruct l; reflexivity|]. cbn [app takez]. rewrite len_cons, Z.add_simpl_l, IH. pose proof (len_nonneg a).
  now replace (1 + len a <=? 0) with false by lia.
Qed.

(* l is what is left of buf from position p on.  The parsers address a file by absolute positions; their theorems speak of
   a file that is a variable and of what stands at a position of it. *)
Definition tail_at (buf : list Z) (p : Z) (l : list Z) : Prop := exists pre, buf = pre ++ l /\ len pre = p.
Lemma tail_at_here pre l : tail_at (pre ++ l) (len pre) l.
Proof. now exists pre. Qed.
Lemma tail_at_app {buf p a l} : tail_at buf p (a ++ l) -> tail_at buf (p + len a) l.
Proof. intros (pre & -> & <-). exists (pre ++ a). now rewrite len_app, <- app_assoc. Qed.
Lemma tail_at_eq q {buf p l} : tail_at buf p l -> q = p -> tail_at buf q l.
Proof. now intros H ->. Qed.
Lemma tail_at_len {buf p l} : tail_at buf p l -> 0 <= p /\ len buf = p + len l.
Proof. intros (pre & -> & <-). split; [apply len_nonneg | apply len_app]. Qed.
Lemma dropz_tail {buf p q l} : tail_at buf p l -> q = p -> dropz q buf = l.
Proof. intros (pre & -> & <-) ->. apply dropz_app. Qed.
Lemma slice_tail {buf p q a l n} : tail_at buf p (a ++ l) -> q = p -> n = len a -> slice buf q n = a.
Proof. intros T Hq ->. unfold slice. rewrite (dropz_tail T Hq). apply takez_app. Qed.

Definition le2 (u : Z) : list Z := [u mod 256; u / 256].
Definition valid_cp (c : Z) : Prop := 0 <= c < 1114112 /\ ~ (55296 <= c < 57344).
Definition units_of_cp (c : Z) : list Z := if c <? 65536 then [c] else [55296 + (c - 65536) / 1024; 56320 + (c - 65536) mod 1024].
Definition units16 (s : str) : list Z := flat_map units_of_cp s.
Definition unit_ok (u : Z) : Prop := 0 <= u < 65536.
Lemma units16_ok s : Forall valid_cp s -> Forall unit_ok (units16 s).
Proof.
  induction 1 as [|c s [Hc Hs] _ IH]; [constructor|]. unfold units16. cbn [flat_map]. apply Forall_app. split; [|exact IH].
  unfold units_of_cp. destruct (c <? 65536) eqn:E; repeat constructor; unfold unit_ok; lia.
Qed.
Lemma units_of_bytes us : Forall unit_ok us -> units_of (flat_map le2 us) = us.
Proof. induction 1 as [|u us Hu _ IH]; [reflexivity|]. cbn [flat_map le2 app units_of]. rewrite IH. f_equal. unfold unit_ok in Hu. lia. Qed.
Lemma len_bytes us : len (flat_map le2 us) = 2 * len us.
Proof. now apply len_flat_map. Qed.
Theorem utf16_points_units s : Forall valid_cp s -> utf16_points (units16 s) = s.
Proof.
  induction 1 as [|c s [Hc Hs] Hrest IH]; [reflexivity|]. unfold units16 in *. cbn [flat_map]. unfold units_of_cp at 1. destruct (c <? 65536) eqn:E.
  - assert (Nl : is_lo c = false) by (unfold is_lo; lia).
    assert (Nh : is_hi c = false) by (unfold is_hi; lia). remember (flat_map units_of_cp s) as r eqn:Er. cbn [app].
    destruct r as [|l t]; cbn [utf16_points]; rewrite ?Nh, ?Nl; cbn [andb orb]; rewrite <- IH; reflexivity.
  - cbn [app utf16_points]. replace (is_hi (55296 + (c - 65536) / 1024)) with true by (unfold is_hi; lia).
    replace (is_lo (56320 + (c - 65536) mod 1024)) with true by (unfold is_lo; lia). cbn [andb]. rewrite IH. f_equal. lia.
Qed.

(* the length prefix: one 16-bit unit below 0x8000, two units (high bit set on the first) from there on *)
Definition len16 (n : Z) : list Z := if n <? 32768 then le2 n else le2 (32768 + n / 65536) ++ le2 (n mod 65536).
Definition entry16 (s : str) : list Z := len16 (len (units16 s)) ++ flat_map le2 (units16 s) ++ [0; 0].
Lemma land_bit k x : 0 <= k -> 0 <= x < 2 ^ (k + 1) -> (Z.land x (2 ^ k) =? 0) = (x <? 2 ^ k).
Proof.
  intros Hk H. rewrite Z.pow_add_r in H by lia. change (2 ^ 1) with 2 in H. assert (Pk : 0 < 2 ^ k) by (apply Z.pow_pos_nonneg; lia).
  (* the mask is 1 shifted by k, and x / 2^k is 0 or 1 *)
  rewrite <- (Z.shiftl_1_l k) at 1. rewrite land_shl_mask, shr_div, shl_mul by lia. change 1 with (Z.ones 1). rewrite land_ones_mod by lia. change (2 ^ 1) with 2.
  destruct (x <? 2 ^ k) eqn:E.
  - rewrite Z.div_small by lia. reflexivity.
  - replace (x / 2 ^ k) with 1 by (apply Z.div_unique with (x - 2 ^ k); lia). change (1 mod 2) with 1. lia.
Qed.
Lemma lor_shift k a b : 0 <= k -> 0 <= a -> 0 <= b < 2 ^ k -> Z.lor (Z.shiftl a k) b = a * 2 ^ k + b.
Proof. intros Hk Ha Hb. rewrite Z.lor_comm, lor_shl_add by lia. lia. Qed.
Lemma takez4 a b c d r : takez 4 (a :: b :: c :: d :: r) = [a; b; c; d].  Proof. destruct r; reflexivity. Qed.
Lemma decode_length16 pre n rest : 0 <= n < 2147483648 -> (2 <= len rest) ->
  decode_length (pre ++ len16 n ++ rest) (len pre) true = Ok (n, len (len16 n)).
Proof.
  intros Hn Hr. unfold decode_length, slice. rewrite dropz_app. unfold len16. destruct (n <? 32768) eqn:E.
  - destruct rest as [|c [|d rest]]; rewrite ?len_cons in Hr; [change (len []) with 0 in Hr; lia..|]. cbn [le2 app]. rewrite takez4. cbv iota beta zeta.
    rewrite (land_bit 15) by lia. replace (n mod 256 + 256 * (n / 256) <? 2 ^ 15) with true by lia. cbn [negb]. f_equal. f_equal. lia.
  - cbn [le2 app]. rewrite takez4. cbv iota beta zeta. set (l1 := (32768 + n / 65536) mod 256 + 256 * ((32768 + n / 65536) / 256)).
    assert (E1 : l1 = 32768 + n / 65536) by (unfold l1; lia). rewrite (land_bit 15) by lia. replace (l1 <? 2 ^ 15) with false by lia. cbn [negb].
    change 32767 with (Z.ones 15). rewrite Z.land_ones, lor_shift by lia. f_equal. f_equal. lia.
Qed.
Lemma decode16_at chars off n skip body rest : decode_length chars off true = Ok (n, skip) ->
  tail_at chars (off + skip) (body ++ [0; 0] ++ rest) -> len body = 2 * n -> decode16 chars off = Ok (utf16_points (units_of body)).
Proof.
  intros El T Hb. unfold decode16. rewrite El. cbn [bind]. rewrite (slice_tail T eq_refl (eq_sym Hb)).
  apply tail_at_app in T. rewrite Hb in T. destruct (tail_at_len T) as [_ L]. autorewrite with len in L. pose proof (len_nonneg rest).
  replace (len chars <? off + skip + 2 * n) with false by lia. now rewrite (slice_tail (n := 2) T eq_refl eq_refl).
Qed.
Theorem decode16_entry pre s post : Forall valid_cp s -> len (units16 s) < 2147483648 -> decode16 (pre ++ entry16 s ++ post) (len pre) = Ok s.
Proof.
  intros Hs Hn. unfold entry16. set (us := units16 s) in *. pose proof (len_nonneg us). pose proof (len_nonneg post). rewrite <- !app_assoc.
  rewrite (decode16_at _ _ (len us) (len (len16 (len us))) (flat_map le2 us) post).
  - rewrite units_of_bytes by (apply units16_ok, Hs). f_equal. apply utf16_points_units, Hs.
  - apply decode_length16; [lia|]. rewrite !len_app, len_bytes. change (len [0; 0]) with 2. lia.
  - apply tail_at_app, tail_at_here.
  - apply len_bytes.
Qed.

Definition utf8_of_cp (c : Z) : list Z :=
  if c <? 128 then [c] else if c <? 2048 then [192 + c / 64; 128 + c mod 64]
  else if c <? 65536 then [224 + c / 4096; 128 + (c / 64) mod 64; 128 + c mod 64]
  else [240 + c / 262144; 128 + (c / 4096) mod 64; 128 + (c / 64) mod 64; 128 + c mod 64].
Definition utf8 (s : str) : list Z := flat_map utf8_of_cp s.
Lemma cont_low6 x : cont (128 + x mod 64) = true.  Proof. unfold cont. lia. Qed.
Theorem utf8_points_utf8 : forall s fuel, Forall valid_cp s -> (length s <= fuel)%nat -> utf8_points fuel (utf8 s) = Ok s.
Proof.
  induction s as [|c s IH]; intros fuel Hs Hf; [destruct fuel; reflexivity|]. apply Forall_cons_iff in Hs as [[Hc Hsur] Hs].
  cbn [length] in Hf. destruct fuel as [|f]; [lia|]. specialize (IH f Hs ltac:(lia)).
  unfold utf8. cbn [flat_map]. fold (utf8 s). unfold utf8_of_cp. destruct (c <? 128) eqn:E1; [|destruct (c <? 2048) eqn:E2; [|destruct (c <? 65536) eqn:E3]];
    cbn [app utf8_points]; rewrite ?cont_low6, IH.
  - rewrite E1. reflexivity.
  - replace (192 + c / 64 <? 128) with false by lia. replace ((194 <=? 192 + c / 64) && (192 + c / 64 <? 224)) with true by lia.
    cbn [bind]. f_equal. f_equal. lia.
  - replace (224 + c / 4096 <? 128) with false by lia. replace ((194 <=? 224 + c / 4096) && (224 + c / 4096 <? 224)) with false by lia.
    replace ((224 <=? 224 + c / 4096) && (224 + c / 4096 <? 240)) with true by lia.
    replace ((224 + c / 4096 - 224) * 4096 + (128 + (c / 64) mod 64 - 128) * 64 + (128 + c mod 64 - 128)) with c by lia.
    replace (2048 <=? c) with true by lia. replace ((55296 <=? c) && (c <? 57344)) with false by lia. reflexivity.
  - replace (240 + c / 262144 <? 128) with false by lia. replace ((194 <=? 240 + c / 262144) && (240 + c / 262144 <? 224)) with false by lia.
    replace ((224 <=? 240 + c / 262144) && (240 + c / 262144 <? 240)) with false by lia. replace ((240 <=? 240 + c / 262144) && (240 + c / 262144 <? 245)) with true by lia.
    replace ((240 + c / 262144 - 240) * 262144 + (128 + (c / 4096) mod 64 - 128) * 4096 + (128 + (c / 64) mod 64 - 128) * 64 + (128 + c mod 64 - 128)) with c by lia.
    replace (65536 <=? c) with true by lia. replace (c <? 1114112) with true by lia. reflexivity.
Qed.
Lemma utf8_length_ge s : Z.of_nat (length s) <= len (utf8 s).
Proof.
  rewrite <- Z.mul_1_l at 1. apply len_flat_map_ge, Forall_forall. intros c _. unfold utf8_of_cp.
  destruct (c <? 128), (c <? 2048), (c <? 65536); cbn; lia.
Qed.

(* the length prefix of a UTF-8 pool: one byte below 0x80, two bytes (high bit set on the first) from there on *)
Definition len8 (n : Z) : list Z := if n <? 128 then [n] else [128 + n / 256; n mod 256].
Lemma takez2 a b r : takez 2 (a :: b :: r) = [a; b].  Proof. destruct r; reflexivity. Qed.
Lemma decode_length8 pre n rest : 0 <= n < 32768 -> 1 <= len rest -> decode_length (pre ++ len8 n ++ rest) (len pre) false = Ok (n, len (len8 n)).
Proof.
  intros Hn Hr. unfold decode_length, slice. rewrite dropz_app. unfold len8. destruct (n <? 128) eqn:E.
  - destruct rest as [|c rest]; [change (len []) with 0 in Hr; lia|]. cbn [app]. rewrite takez2. cbv iota beta.
    rewrite (land_bit 7) by lia. change (2 ^ 7) with 128. rewrite E. reflexivity.
  - cbn [app]. rewrite takez2. cbv iota beta. rewrite (land_bit 7) by lia. replace (128 + n / 256 <? 2 ^ 7) with false by lia. cbn [negb].
    change 127 with (Z.ones 7). rewrite Z.land_ones, lor_shift by lia. f_equal. f_equal. lia.
Qed.
(* a UTF-8 pool entry: the length in UTF-16 units, the length in bytes, the bytes, a NUL *)
Definition entry8 (s : str) : list Z := len8 (len (units16 s)) ++ len8 (len (utf8 s)) ++ utf8 s ++ [0].
Lemma decode8_at chars off u s1 n s2 body rest : decode_length chars off false = Ok (u, s1) -> decode_length chars (off + s1) false = Ok (n, s2) ->
  tail_at chars (off + s1 + s2) (body ++ [0] ++ rest) -> len body = n -> decode8 chars off = utf8_points (S (Z.to_nat n)) body.
Proof.
  intros E1 E2 T Hb. unfold decode8. rewrite E1. cbn [bind]. rewrite E2. cbn [bind]. rewrite (slice_tail T eq_refl (eq_sym Hb)).
  apply tail_at_app in T. rewrite Hb in T. destruct (tail_at_len T) as [_ L]. autorewrite with len in L. pose proof (len_nonneg rest).
  replace (len chars <? off + s1 + s2 + n) with false by lia. now rewrite (slice_tail (n := 1) T eq_refl eq_refl).
Qed.
Theorem decode8_entry pre s post : Forall valid_cp s -> len (units16 s) < 32768 -> len (utf8 s) < 32768 -> decode8 (pre ++ entry8 s ++ post) (len pre) = Ok s.
Proof.
  intros Hs Hu Hb. pose proof (utf8_length_ge s) as G. unfold entry8. set (bs := utf8 s) in *. set (L1 := len8 (len (units16 s))). set (L2 := len8 (len bs)).
  pose proof (len_nonneg bs). pose proof (len_nonneg (units16 s)). pose proof (len_nonneg post). pose proof (len_nonneg L2). rewrite <- !app_assoc.
  rewrite (decode8_at _ _ (len (units16 s)) (len L1) (len bs) (len L2) bs post).
  - apply utf8_points_utf8; [exact Hs | lia].
  - apply decode_length8; [lia|]. autorewrite with len. lia.
  - rewrite <- len_app, app_assoc. apply decode_length8; [lia|]. autorewrite with len. lia.
  - do 2 apply tail_at_app. apply tail_at_here.
  - reflexivity.
Qed.

Fixpoint offsets_from (at_ : Z) (entries : list (list Z)) : list Z :=
  match entries with [] => [] | e :: r => at_ :: offsets_from (at_ + len e) r end.
Lemma nth_offsets : forall entries at_ k e, nth_error entries k = Some e ->
  exists pre post, concat entries = pre ++ e ++ post /\ nth_error (offsets_from at_ entries) k = Some (at_ + len pre).
Proof.
  induction entries as [|e0 entries IH]; intros at_ [|k] e H; try discriminate.
  - injection H as <-. exists [], (concat entries). split; [reflexivity|]. cbn [offsets_from nth_error]. f_equal. change (len []) with 0. lia.
  - destruct (IH (at_ + len e0) k e H) as (pre & post & Ec & Eo). exists (e0 ++ pre), post. cbn [concat offsets_from nth_error].
    rewrite Ec, Eo, len_app, <- app_assoc. split; [reflexivity | f_equal; lia].
Qed.
Arguments nth_offsets {entries} at_ {k e}.
Definition pool_of (utf8_flag : bool) (ss : list str) (padding : list Z) : pool :=
  let entries := map (if utf8_flag then entry8 else entry16) ss in
  {| p_utf8 := utf8_flag; p_count := Z.of_nat (length ss); p_offsets := offsets_from 0 entries; p_chars := concat entries ++ padding |}.
Definition fits (utf8_flag : bool) (s : str) : Prop :=
  Forall valid_cp s /\ if utf8_flag then len (units16 s) < 32768 /\ len (utf8 s) < 32768 else len (units16 s) < 2147483648.
Lemma nthz_nth_error {A} {l : list A} {i x} : nthz l i = Some x <-> 0 <= i /\ nth_error l (Z.to_nat i) = Some x.
Proof.
  unfold nthz. destruct ((i <? 0) || (Z.of_nat (length l) <=? i)) eqn:E.
  - split; [discriminate|]. intros [Hi Hn]. assert (Z.to_nat i < length l)%nat by (apply nth_error_Some; congruence). lia.
  - split; [intros H; split; [lia | exact H] | tauto].
Qed.
(* every string of a pool - any number of strings, either encoding, one- and two-unit length prefixes, anything after the
   last entry - is what getString returns for its index *)
Theorem pool_strings_exact utf8_flag ss padding i s :
  Forall (fits utf8_flag) ss -> nthz ss i = Some s -> get_string (pool_of utf8_flag ss padding) i = Ok s.
Proof.
  intros Hall Hn. apply nthz_nth_error in Hn as [Hi Hn].
  assert (Hl : (Z.to_nat i < length ss)%nat) by (apply nth_error_Some; congruence).
  destruct (proj1 (Forall_forall _ _) Hall s (nth_error_In _ _ Hn)) as [Hv Hb].
  destruct (nth_offsets 0 (map_nth_error (if utf8_flag then entry8 else entry16) _ _ Hn)) as (pre & post & Ec & Eo).
  unfold get_string, pool_of. cbn [p_count p_offsets p_utf8 p_chars]. replace ((i <? 0) || (Z.of_nat (length ss) <=? i)) with false by lia.
  rewrite (proj2 nthz_nth_error (conj Hi Eo)), Ec, <- !app_assoc.
  destruct utf8_flag; [apply decode8_entry; tauto | now apply decode16_entry].
Qed.
Theorem pool_index_outside p i : i < 0 \/ p_count p <= i -> get_string p i = Ok [].
Proof. intros H. unfold get_string. replace ((i <? 0) || (p_count p <=? i)) with true by lia. reflexivity. Qed.

Definition b32 (n : Z) : list Z := [n mod 256; (n / 256) mod 256; (n / 65536) mod 256; n / 16777216].
Lemma len_b32 n : len (b32 n) = 4.  Proof. reflexivity. Qed.
Lemma len_b32s xs : len (flat_map b32 xs) = 4 * Z.of_nat (length xs).  Proof. now apply len_flat_map. Qed.
Lemma u32_b32 n r : 0 <= n < 4294967296 -> u32 (b32 n ++ r) = Ok (n, r).
Proof. intros H. unfold b32. cbn [app u32]. f_equal. f_equal. lia. Qed.
Lemma u32s_0 fuel l : u32s fuel 0 l = Ok ([], l).  Proof. destruct fuel; reflexivity. Qed.
Lemma u32s_b32 : forall xs fuel n rest, Forall (fun x => 0 <= x < 4294967296) xs -> n = Z.of_nat (length xs) -> (length xs <= fuel)%nat ->
  u32s fuel n (flat_map b32 xs ++ rest) = Ok (xs, rest).
Proof.
  induction xs as [|x xs IH]; intros fuel n rest Hx -> Hf; [apply u32s_0|].
  apply Forall_cons_iff in Hx as [Hx Hxs]. cbn [length] in Hf. destruct fuel as [|f]; [lia|]. cbn [u32s length flat_map].
  replace (Z.of_nat (S (length xs)) <=? 0) with false by lia. rewrite <- app_assoc, u32_b32 by exact Hx. cbn [bind].
  rewrite (IH f) by (trivial; lia). reflexivity.
Qed.
Lemma length_b32s xs : length (flat_map b32 xs) = (4 * length xs)%nat.
Proof. induction xs as [|x xs IH]; [reflexivity|]. cbn [flat_map b32 app length]. lia. Qed.
Lemma offsets_from_length : forall entries a, length (offsets_from a entries) = length entries.
Proof. induction entries as [|e l IH]; intros a; cbn [offsets_from length]; [reflexivity | now rewrite IH]. Qed.
Lemma offsets_from_bound B : forall entries a, 0 <= a -> a + len (concat entries) < B -> Forall (fun x => 0 <= x < B) (offsets_from a entries).
Proof.
  induction entries as [|e l IH]; intros a Ha Hb; cbn [offsets_from concat] in *; [constructor|]. rewrite len_app in Hb.
  pose proof (len_nonneg e). pose proof (len_nonneg (concat l)). constructor; [lia | apply IH; lia].
Qed.
(* the bytes after the 8-byte chunk header of a string pool without styles *)
Definition pool_bytes (utf8_flag : bool) (ss : list str) (padding : list Z) : list Z :=
  let entries := map (if utf8_flag then entry8 else entry16) ss in
  let count := Z.of_nat (length ss) in
  b32 count ++ b32 0 ++ b32 (if utf8_flag then 256 else 0) ++ b32 (28 + 4 * count) ++ b32 0 ++ flat_map b32 (offsets_from 0 entries) ++ concat entries ++ padding.
Definition pool_size (utf8_flag : bool) (ss : list str) (padding : list Z) : Z :=
  let entries := map (if utf8_flag then entry8 else entry16) ss in 28 + 4 * Z.of_nat (length ss) + len (concat entries ++ padding).
Lemma len_pool_bytes utf8_flag ss padding : len (pool_bytes utf8_flag ss padding) = pool_size utf8_flag ss padding - 8.
Proof. unfold pool_bytes, pool_size. cbv zeta. rewrite !len_app, !len_b32, len_b32s, offsets_from_length, map_length. lia. Qed.
Lemma pool_size_ge utf8_flag ss padding : 28 <= pool_size utf8_flag ss padding.
Proof. unfold pool_size. cbv zeta. match goal with |- context [len ?z] => pose proof (len_nonneg z) end. lia. Qed.
Theorem parse_pool_exact (utf8_flag : bool) ss padding after :
  28 + 4 * Z.of_nat (length ss) + len (concat (map (if utf8_flag then entry8 else entry16) ss)) < 4294967296 ->
  parse_pool (pool_bytes utf8_flag ss padding ++ after) (pool_size utf8_flag ss padding) = Ok (pool_of utf8_flag ss padding).
Proof.
  intros Hb. unfold parse_pool, pool_bytes, pool_size, pool_of. set (entries := map (if utf8_flag then entry8 else entry16) ss) in *.
  set (count := Z.of_nat (length ss)) in *. pose proof (len_nonneg (concat entries)). pose proof (len_nonneg (concat entries ++ padding)).
  assert (0 <= (if utf8_flag then 256 else 0) < 4294967296) by (destruct utf8_flag; lia). rewrite <- !app_assoc. repeat (rewrite u32_b32 by lia; cbn [bind]).
  replace (28 + 4 * count - (0 * 4 + 28)) with (4 * count) by lia. replace ((4 * count) mod 4 =? 0) with true by lia. replace (4 * count / 4 =? count) with true by lia. cbn [andb].
  rewrite (u32s_b32 (offsets_from 0 entries)).
  - cbn [bind]. rewrite u32s_0. cbn [bind]. change (negb (0 =? 0)) with false. cbn [andb].
    rewrite Z.add_simpl_l. replace (len (concat entries ++ padding) <? 0) with false by lia. rewrite app_assoc, takez_app. f_equal. destruct utf8_flag; reflexivity.
  - apply offsets_from_bound; lia.
  - rewrite offsets_from_length. unfold entries. now rewrite map_length.
  - rewrite !app_length, length_b32s. lia.
Qed.
Corollary string_of_parsed_pool (utf8_flag : bool) ss padding after i s :
  28 + 4 * Z.of_nat (length ss) + len (concat (map (if utf8_flag then entry8 else entry16) ss)) < 4294967296 ->
  Forall (fits utf8_flag) ss -> nthz ss i = Some s ->
  (do p <- parse_pool (pool_bytes utf8_flag ss padding ++ after) (pool_size utf8_flag ss padding); get_string p i) = Ok s.
Proof. intros Hb Hall Hn. rewrite parse_pool_exact by exact Hb. cbn [bind]. now apply pool_strings_exact. Qed.

(* ARSCHeader (coq/Misc/TermModel.v, with its own copies of len and dropz, the same functions as those of PoolModel) at a
   position where a header with plausible sizes stands: it is accepted as it stands, whether its type is asked for or not *)
Lemma header_at {buf p l ty hs sz ex} : tail_at buf p l -> TermModel.hdr l = Some (ty, hs, sz) -> 8 <= hs <= sz -> ex = 0 \/ ex = ty ->
  TermModel.arsc_header buf p ex = Ok [ty; hs; sz; p; p + 8].
Proof.
  intros (pre & -> & <-) Hh Hs Hex. pose proof (len_nonneg pre).
  assert (8 <= len l) by (do 8 (destruct l as [|? l]; [discriminate|]); autorewrite with len; pose proof (len_nonneg l); lia).
  unfold TermModel.arsc_header, TermModel.arsc_fuel. change TermModel.len with len. change TermModel.dropz with dropz.
  rewrite len_app. destruct (_ <? len pre + 8) eqn:E; [lia|]. cbn [TermModel.arsc_loop]. rewrite dropz_app, Hh.
  replace (sz <? 8) with false by lia. cbn [andb]. replace ((8 <=? hs) && (hs <=? sz)) with true by lia. cbn [orb bind].
  replace (negb (ex =? 0) && negb (ty =? ex)) with false by lia.
  replace (hs <? 8) with false by lia. replace (sz <? 8) with false by lia. now replace (sz <? hs) with false by lia.
Qed.
