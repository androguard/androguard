(* C26 - the chunk decoders of AXMLParser: every node chunk (namespace start/end, element start with its attribute records,
   element end, text) and the resource map, written at any position of any buffer, is decoded to exactly its event *)
From Coq Require Import ZArith List Bool Lia ZifyBool.
Require Import V.Lib.Val V.Lib.Result V.Axml.PoolModel V.Axml.PoolProofs V.Axml.AxmlModel V.Misc.TermModel.
Import ListNotations.
Open Scope Z_scope.

Definition b16 (n : Z) : list Z := [n mod 256; n / 256].
Definition chunk_header (ty hs sz : Z) : list Z := b16 ty ++ b16 hs ++ b32 sz.
Lemma len_b16 n : PoolModel.len (b16 n) = 2.  Proof. reflexivity. Qed.
Lemma len_header ty hs sz : PoolModel.len (chunk_header ty hs sz) = 8.  Proof. reflexivity. Qed.
Lemma u16_b16 n r : 0 <= n < 65536 -> PoolModel.u16 (b16 n ++ r) = Ok (n, r).
Proof. intros H. unfold b16. cbn [app PoolModel.u16]. f_equal. f_equal. lia. Qed.
Ltac read := repeat (first [rewrite u32_b32 by lia | rewrite u16_b16 by lia]; cbn [bind]).
Lemma arsc_header_at_exp pre ty hs sz rest ex : 0 <= ty < 65536 -> 8 <= hs < 65536 -> hs <= sz < 4294967296 -> ex = 0 \/ ex = ty ->
  arsc_header (pre ++ chunk_header ty hs sz ++ rest) (PoolModel.len pre) ex = Ok [ty; hs; sz; PoolModel.len pre; PoolModel.len pre + 8].
Proof.
  intros Ht Hh Hs Hex. apply (header_at (tail_at_here pre _)); [|lia | exact Hex].
  unfold chunk_header, b16, b32. cbn [app hdr]. repeat f_equal; lia.
Qed.
Lemma arsc_header_at pre ty hs sz rest : 0 <= ty < 65536 -> 8 <= hs < 65536 -> hs <= sz < 4294967296 ->
  arsc_header (pre ++ chunk_header ty hs sz ++ rest) (PoolModel.len pre) 0 = Ok [ty; hs; sz; PoolModel.len pre; PoolModel.len pre + 8].
Proof. intros Ht Hh Hs. apply arsc_header_at_exp; auto. Qed.

Definition fits32 (n : Z) : Prop := 0 <= n < 4294967296.
Definition node_chunk (ty line comment : Z) (body : list Z) : list Z :=
  chunk_header ty 16 (16 + PoolModel.len body) ++ b32 line ++ b32 comment ++ body.
Lemma pdropz_header pre ty hs sz l : PoolModel.dropz (PoolModel.len pre + 8) (pre ++ chunk_header ty hs sz ++ l) = l.
Proof. rewrite <- (len_header ty hs sz), <- len_app, app_assoc. apply dropz_app. Qed.

Section Node.
  Variables (pre rest : list Z) (fs : Z) (st : pstate) (f : nat).
  Hypothesis Hpos : s_pos st = PoolModel.len pre.
  Hypothesis Hfs : PoolModel.len pre <> fs.

  (* what every node chunk has in common: the header is accepted, the tests on its (literal) type are decided, the
     fields behind it are read *)
  Ltac open_node :=
    cbn [do_next]; rewrite Hpos; replace (PoolModel.len pre =? fs) with false by lia;
    unfold node_chunk; rewrite <- !app_assoc, arsc_header_at, pdropz_header by (rewrite ?len_app, ?len_b32, ?len_b16; lia);
    cbn [Z.eqb Pos.eqb Z.ltb Z.compare Pos.compare Pos.compare_cont orb negb]; read.

  Theorem start_namespace_chunk line comment prefix uri : fits32 line -> fits32 comment -> fits32 prefix -> fits32 uri ->
    do_next (S f) (pre ++ node_chunk 256 line comment (b32 prefix ++ b32 uri) ++ rest) fs st =
    do_next f (pre ++ node_chunk 256 line comment (b32 prefix ++ b32 uri) ++ rest) fs
      {| s_pos := PoolModel.len pre + 24; s_ns := s_ns st ++ [(prefix, uri)]; s_res := s_res st |}.
  Proof. unfold fits32. intros H1 H2 H3 H4. open_node. now rewrite <- Z.add_assoc. Qed.

  Theorem end_namespace_chunk line comment prefix uri : fits32 line -> fits32 comment -> fits32 prefix -> fits32 uri ->
    do_next (S f) (pre ++ node_chunk 257 line comment (b32 prefix ++ b32 uri) ++ rest) fs st =
    do_next f (pre ++ node_chunk 257 line comment (b32 prefix ++ b32 uri) ++ rest) fs
      {| s_pos := PoolModel.len pre + 24; s_ns := remove_first (prefix, uri) (s_ns st); s_res := s_res st |}.
  Proof. unfold fits32. intros H1 H2 H3 H4. open_node. now rewrite <- Z.add_assoc. Qed.
  Theorem end_element_chunk line comment ns name : fits32 line -> fits32 comment -> fits32 ns -> fits32 name ->
    do_next (S f) (pre ++ node_chunk 259 line comment (b32 ns ++ b32 name) ++ rest) fs st =
    Ok (Some (EEnd ns name), {| s_pos := PoolModel.len pre + 24; s_ns := s_ns st; s_res := s_res st |}).
  Proof. unfold fits32. intros H1 H2 H3 H4. open_node. reflexivity. Qed.
  Theorem text_chunk line comment name x y : fits32 line -> fits32 comment -> fits32 name -> fits32 x -> fits32 y ->
    do_next (S f) (pre ++ node_chunk 260 line comment (b32 name ++ b32 x ++ b32 y) ++ rest) fs st =
    Ok (Some (EText name), {| s_pos := PoolModel.len pre + 28; s_ns := s_ns st; s_res := s_res st |}).
  Proof. unfold fits32. intros H1 H2 H3 H4 H5. open_node. reflexivity. Qed.

  (* an attribute record: namespace, name, raw value, (size 8, 0, type), data *)
  Definition attr_bytes (a : attr) : list Z := b32 (a_ns a) ++ b32 (a_name a) ++ b32 (a_raw a) ++ b32 (8 + 16777216 * a_type a) ++ b32 (a_data a).
  Definition wf_attr (a : attr) : Prop := fits32 (a_ns a) /\ fits32 (a_name a) /\ fits32 (a_raw a) /\ 0 <= a_type a < 256 /\ fits32 (a_data a).
  Lemma read_attrs_exact : forall attrs fuel l, Forall wf_attr attrs -> (length attrs <= fuel)%nat ->
    read_attrs fuel (Z.of_nat (length attrs)) 20 (flat_map attr_bytes attrs ++ l) = Ok (attrs, l).
  Proof.
    induction attrs as [|a attrs IH]; intros fuel l Hw Hf; [destruct fuel; reflexivity|].
    apply Forall_cons_iff in Hw as [(W1 & W2 & W3 & W4 & W5) Hw]. cbn [length] in Hf. destruct fuel as [|fu]; [lia|]. cbn [read_attrs length flat_map].
    replace (Z.of_nat (S (length attrs)) <=? 0) with false by lia. unfold attr_bytes at 1. unfold fits32 in *. rewrite <- !app_assoc. read.
    replace (Z.of_nat (S (length attrs)) - 1) with (Z.of_nat (length attrs)) by lia. cbn [Z.eqb Pos.eqb]. rewrite IH by (trivial; lia). cbn [bind].
    destruct a as [an am ar at_ ad]. cbn [a_type] in *. rewrite Z.shiftr_div_pow2 by lia. do 4 f_equal. change (2 ^ 24) with 16777216. lia.
  Qed.
  Theorem start_element_chunk line comment ns name attrs : fits32 line -> fits32 comment -> fits32 ns -> fits32 name ->
    Forall wf_attr attrs -> Z.of_nat (length attrs) < 65536 ->
    let body := b32 ns ++ b32 name ++ b16 20 ++ b16 20 ++ b32 (Z.of_nat (length attrs)) ++ b32 0 ++ flat_map attr_bytes attrs in
    16 + PoolModel.len body < 4294967296 ->
    do_next (S f) (pre ++ node_chunk 258 line comment body ++ rest) fs st =
    Ok (Some (EStart ns name attrs comment (s_ns st)), {| s_pos := PoolModel.len pre + 16 + PoolModel.len body; s_ns := s_ns st; s_res := s_res st |}).
  Proof.
    intros H1 H2 H3 H4 Hw Hn body Hb. unfold fits32 in H1, H2, H3, H4. pose proof (len_nonneg body). open_node. rewrite Z.add_assoc.
    generalize (PoolModel.len body). intros L. unfold body. rewrite <- !app_assoc. read.
    change 65535 with (Z.ones 16). rewrite Z.land_ones, Z.mod_small by lia.
    rewrite read_attrs_exact; [reflexivity | exact Hw | rewrite app_length; pose proof (len_flat_map attr_bytes 20 attrs (fun _ => eq_refl)); unfold PoolModel.len in *; lia].
  Qed.

  Theorem resource_map_chunk ids : Forall (fun x => 0 <= x < 4294967296) ids -> 8 + 4 * Z.of_nat (length ids) < 4294967296 ->
    let chunk := chunk_header 384 8 (8 + 4 * Z.of_nat (length ids)) ++ flat_map b32 ids in
    do_next (S f) (pre ++ chunk ++ rest) fs st =
    do_next f (pre ++ chunk ++ rest) fs {| s_pos := PoolModel.len pre + 8 + 4 * Z.of_nat (length ids); s_ns := s_ns st; s_res := s_res st ++ ids |}.
  Proof.
    intros Hi Hb chunk. unfold chunk. cbn [do_next]. rewrite Hpos. replace (PoolModel.len pre =? fs) with false by lia.
    rewrite <- !app_assoc, arsc_header_at, pdropz_header by lia. cbn [Z.eqb Pos.eqb].
    replace ((8 + 4 * Z.of_nat (length ids) <? 8) || negb ((8 + 4 * Z.of_nat (length ids)) mod 4 =? 0)) with false by lia.
    rewrite (u32s_b32 ids) by (trivial; rewrite ?app_length, ?length_b32s; lia). cbn [bind].
    replace (Z.max 0 ((8 + 4 * Z.of_nat (length ids) - 8) / 4)) with (Z.of_nat (length ids)) by lia. reflexivity.
  Qed.
End Node.
