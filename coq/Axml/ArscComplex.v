(* C28 - a complex entry (a bag: parent, count, then count pairs of a name and a Res_value) at any position of any file is
   read back with its parent, its count and exactly its items *)
From Coq Require Import ZArith List Bool Lia ZifyBool.
Require Import V.Lib.Val V.Lib.Result V.Lib.Struct V.Axml.PoolModel V.Axml.PoolProofs V.Axml.ArscTypeModel V.Axml.ArscTypeProofs.
Import ListNotations.
Open Scope Z_scope.

Definition item := (Z * (Z * Z))%type.                                   (* name, (data type, data) *)
Definition item_bytes (i : item) : list Z := b32 (fst i) ++ value_bytes (fst (snd i)) (snd (snd i)).
Definition wf_item (i : item) : Prop := 0 <= fst i < 4294967296 /\ 0 <= snd (snd i) < 4294967296.
Lemma len_item i : len (item_bytes i) = 12.
Proof. reflexivity. Qed.
Lemma len_items items : len (flat_map item_bytes items) = 12 * Z.of_nat (length items).
Proof. now apply len_flat_map. Qed.
#[export] Hint Rewrite len_items : len.
Lemma read_items_exact : forall items fuel pos endp rest, Forall wf_item items -> (length items <= fuel)%nat ->
  pos + 12 * Z.of_nat (length items) <= endp ->
  read_items fuel (Z.of_nat (length items)) pos endp (flat_map item_bytes items ++ rest) = Ok items.
Proof.
  induction items as [|i items IH]; intros fuel pos endp rest Hw Hf He; [destruct fuel; reflexivity|].
  apply Forall_cons_iff in Hw as [[W1 W2] Hw]. destruct fuel as [|f]; cbn [length] in *; [lia|]. cbn [read_items flat_map].
  replace (Z.of_nat (S (length items)) <=? 0) with false by lia. replace (endp <? pos + 4) with false by lia.
  unfold item_bytes at 1. rewrite <- !app_assoc. read. rewrite res_value_enc by lia. cbn [bind].
  replace (Z.of_nat (S (length items)) - 1) with (Z.of_nat (length items)) by lia.
  rewrite IH by (auto; lia). destruct i as [n [t d]]. reflexivity.
Qed.
Theorem complex_entry_exact pre size flags index parent items rest endp rid :
  0 <= size < 65536 -> 0 <= flags < 65536 -> Z.land flags 1 = 1 -> 0 <= index < 4294967296 -> 0 <= parent < 4294967296 ->
  Forall wf_item items -> Z.of_nat (length items) < 4294967296 -> len pre + 16 + 12 * Z.of_nat (length items) <= endp ->
  parse_entry (pre ++ b16 size ++ b16 flags ++ b32 index ++ b32 parent ++ b32 (Z.of_nat (length items)) ++ flat_map item_bytes items ++ rest) (len pre) endp rid =
  Ok {| e_id := rid; e_size := size; e_flags := flags; e_index := index; e_payload := Complex parent (Z.of_nat (length items)) items |}.
Proof.
  intros Hs Hf H1 Hi Hp Hw Hn He. unfold parse_entry. rewrite at_app. read. rewrite H1. cbn [Z.eqb negb]. read.
  rewrite read_items_exact; [reflexivity | exact Hw | | lia].
  pose proof (len_app (flat_map item_bytes items) rest) as L. rewrite len_items in L. unfold len in L. lia.
Qed.
