(* C28 - proofs about coq/Axml/ArscTypeModel.v: the three encodings of the entry-offset array and the entry records *)
From Coq Require Import ZArith List Bool Lia ZifyBool.
Require Import V.Lib.Val V.Lib.Result V.Lib.Struct V.Lib.Bits V.Axml.PoolModel V.Axml.PoolProofs V.Axml.ArscTypeModel.
Import ListNotations.
Open Scope Z_scope.

Definition b16 (n : Z) : list Z := lbytes 2 n.
Definition b32 (n : Z) : list Z := lbytes 4 n.
Lemma u16_b16 n r : 0 <= n < 65536 -> u16 (b16 n ++ r) = Ok (n, r).
Proof. intros H. unfold b16. cbn [lbytes app u16]. f_equal. f_equal. lia. Qed.
Lemma u32_b32 n r : 0 <= n < 4294967296 -> u32 (b32 n ++ r) = Ok (n, r).
Proof. intros H. unfold b32. cbn [lbytes app u32]. f_equal. f_equal. lia. Qed.
Lemma u8_byte n r : u8 (n :: r) = Ok (n, r).
Proof. reflexivity. Qed.
Ltac read := repeat (first [rewrite u16_b16 by lia | rewrite u32_b32 by lia]; cbn [bind]).

Lemma len_b16 n : len (b16 n) = 2.  Proof. reflexivity. Qed.
Lemma len_b32 n : len (b32 n) = 4.  Proof. reflexivity. Qed.
#[export] Hint Rewrite len_b16 len_b32 : len.

Lemma at_app pre l : at_ (pre ++ l) (len pre) = l.
Proof. unfold at_. pose proof (len_nonneg pre). replace (len pre <? 0) with false by lia. apply dropz_app. Qed.
Lemma at_tail {buf p q l} : tail_at buf p l -> q = p -> at_ buf q = l.
Proof. intros (pre & -> & <-) ->. apply at_app. Qed.

Definition when (b : bool) (f : result (Z * Z) -> result (Z * Z)) (st : result (Z * Z)) : result (Z * Z) := if b then f st else st.
(* config_len with its local definitions folded: the fields in the order in which they are read, innermost first *)
Lemma config_len_eq l : config_len l =
  do ' (size, _) <- u32 l;
  do ' (c, r) <- when (52 <=? size) (strict_field 4) (when (44 <=? size) (lenient_field 8) (when (40 <=? size) (lenient_field 4)
       (when (36 <=? size) (strict_field 4) (when (32 <=? size) (strict_field 4) (when (28 <=? size) (strict_field 4)
       (when (24 <=? size) (strict_field 4) (when (20 <=? size) (strict_field 4)
       (strict_field 4 (strict_field 4 (strict_field 4 (strict_field 4 (Ok (0, len l)))))))))))));
  Ok (if 0 <? size - c then c + Z.min (size - c) r else c).
Proof. reflexivity. Qed.
Lemma strict_field_ok n c r : n <= r -> strict_field n (Ok (c, r)) = Ok (c + n, r - n).
Proof. intros H. unfold strict_field. cbn [bind]. now replace (r <? n) with false by lia. Qed.
Lemma lenient_field_ok n c r : n <= r -> lenient_field n (Ok (c, r)) = Ok (c + n, r - n).
Proof. intros H. unfold lenient_field. cbn [bind]. now replace (Z.min n r) with n by lia. Qed.

(* what the table says: for the indices i, i+1, ... the offset of the entry, or None when the configuration has no such entry *)
Fixpoint present (base i : Z) (slots : list (option Z)) : list (Z * Z) :=
  match slots with
  | [] => []
  | Some off :: r => (off, base + i) :: present base (i + 1) r
  | None :: r => present base (i + 1) r
  end.
Definition ok32 (o : option Z) : Prop := match o with Some x => 0 <= x < 4294967295 | None => True end.
Definition ok16 (o : option Z) : Prop := match o with Some x => 0 <= x < 4 * 65535 /\ x mod 4 = 0 | None => True end.
Definition enc32 (o : option Z) : list Z := b32 (match o with Some x => x | None => 4294967295 end).
Definition enc16 (o : option Z) : list Z := b16 (match o with Some x => x / 4 | None => 65535 end).

Lemma read_offsets_end fuel flags i count base l : count <= i -> read_offsets fuel flags i count base l = Ok [].
Proof. intros H. destruct fuel; cbn [read_offsets]; replace (count <=? i) with true by lia; reflexivity. Qed.

Theorem dense_offsets_exact : forall slots fuel i base rest, Forall ok32 slots -> (length slots <= fuel)%nat ->
  read_offsets fuel 0 i (i + Z.of_nat (length slots)) base (flat_map enc32 slots ++ rest) = Ok (present base i slots).
Proof.
  induction slots as [|o slots IH]; intros fuel i base rest Hok Hf; [apply read_offsets_end; cbn [length]; lia|].
  apply Forall_cons_iff in Hok as [Ho Hok]. destruct fuel as [|f]; cbn [length] in *; [lia|].
  cbn [read_offsets flat_map]. replace (i + Z.of_nat (S (length slots)) <=? i) with false by lia.
  change (Z.land 0 1 =? 0) with true. change (Z.land 0 2 =? 0) with true. cbn [negb]. unfold enc32 at 1. rewrite <- app_assoc.
  rewrite u32_b32 by (destruct o; cbn in Ho; lia). cbn [bind]. replace (i + Z.of_nat (S (length slots))) with (i + 1 + Z.of_nat (length slots)) by lia.
  rewrite IH by (auto; lia). cbn [bind present].
  destruct o as [x|]; [|reflexivity]. cbn in Ho. replace (x =? 4294967295) with false by lia. reflexivity.
Qed.
Theorem offset16_offsets_exact : forall slots fuel i base rest, Forall ok16 slots -> (length slots <= fuel)%nat ->
  read_offsets fuel 2 i (i + Z.of_nat (length slots)) base (flat_map enc16 slots ++ rest) = Ok (present base i slots).
Proof.
  induction slots as [|o slots IH]; intros fuel i base rest Hok Hf; [apply read_offsets_end; cbn [length]; lia|].
  apply Forall_cons_iff in Hok as [Ho Hok]. destruct fuel as [|f]; cbn [length] in *; [lia|].
  cbn [read_offsets flat_map]. replace (i + Z.of_nat (S (length slots)) <=? i) with false by lia.
  change (Z.land 2 1 =? 0) with true. change (Z.land 2 2 =? 0) with false. cbn [negb]. unfold enc16 at 1. rewrite <- app_assoc.
  rewrite u16_b16 by (destruct o; cbn in Ho; lia). cbn [bind]. replace (i + Z.of_nat (S (length slots))) with (i + 1 + Z.of_nat (length slots)) by lia.
  rewrite IH by (auto; lia). cbn [bind present].
  destruct o as [x|]; [|reflexivity]. cbn in Ho. replace (x / 4 =? 65535) with false by lia. replace (x / 4 * 4) with x by lia. reflexivity.
Qed.
(* sparse: only the existing entries are listed, each with its index *)
Definition ok_sparse (p : Z * Z) : Prop := 0 <= fst p < 65536 /\ 0 <= snd p < 4 * 65536 /\ snd p mod 4 = 0.
Definition enc_sparse (p : Z * Z) : list Z := b16 (fst p) ++ b16 (snd p / 4).
Theorem sparse_offsets_exact : forall items fuel i base rest, Forall ok_sparse items -> (length items <= fuel)%nat ->
  read_offsets fuel 1 i (i + Z.of_nat (length items)) base (flat_map enc_sparse items ++ rest) = Ok (map (fun p => (snd p, base + fst p)) items).
Proof.
  induction items as [|p items IH]; intros fuel i base rest Hok Hf; [apply read_offsets_end; cbn [length]; lia|].
  apply Forall_cons_iff in Hok as [(H1 & H2 & H3) Hok]. destruct fuel as [|f]; cbn [length] in *; [lia|].
  cbn [read_offsets flat_map map]. replace (i + Z.of_nat (S (length items)) <=? i) with false by lia.
  change (Z.land 1 1 =? 0) with false. cbn [negb]. unfold enc_sparse at 1. rewrite <- !app_assoc. read.
  replace (i + Z.of_nat (S (length items))) with (i + 1 + Z.of_nat (length items)) by lia. rewrite IH by (auto; lia). cbn [bind]. replace (snd p / 4 * 4) with (snd p) by lia. reflexivity.
Qed.

Definition value_bytes (ty data : Z) : list Z := b16 8 ++ [0; ty] ++ b32 data.
Lemma res_value_enc ty data r : 0 <= data < 4294967296 -> res_value (value_bytes ty data ++ r) = Ok ((ty, data), r).
Proof. intros H. unfold res_value, value_bytes. rewrite <- !app_assoc. read. cbn [app u8 bind]. now read. Qed.
(* a plain entry: size 8, flags without COMPLEX and COMPACT, key index, Res_value *)
Theorem plain_entry_exact pre flags index ty data rest endp rid :
  0 <= flags < 65536 -> Z.land flags 1 = 0 -> Z.land flags 8 = 0 -> 0 <= index < 4294967296 -> 0 <= data < 4294967296 ->
  parse_entry (pre ++ b16 8 ++ b16 flags ++ b32 index ++ value_bytes ty data ++ rest) (len pre) endp rid =
  Ok {| e_id := rid; e_size := 8; e_flags := flags; e_index := index; e_payload := Plain ty data |}.
Proof.
  intros Hf H1 H8 Hi Hd. unfold parse_entry. rewrite at_app. read. rewrite H1, H8. cbn [Z.eqb negb]. now rewrite res_value_enc.
Qed.
(* a compact entry: the key index sits in the size field, the data type in the high byte of the flags, the data in the index field *)
Theorem compact_entry_exact pre key ty data rest endp rid :
  0 <= key < 65536 -> 0 <= ty < 256 -> 0 <= data < 4294967296 ->
  parse_entry (pre ++ b16 key ++ b16 (8 + 256 * ty) ++ b32 data ++ rest) (len pre) endp rid =
  Ok {| e_id := rid; e_size := key; e_flags := 8 + 256 * ty; e_index := data; e_payload := Compact key data ty |}.
Proof.
  intros Hk Ht Hd. unfold parse_entry. rewrite at_app. read.
  (* a mask below 2^8 sees the low byte of the flags, which is 8 *)
  assert (L : forall m, 0 <= m < 256 -> Z.land (8 + 256 * ty) m = Z.land 8 m).
  { intros m Hm. rewrite <- (Z.mod_small m 256), <- !(land255 m), (Z.land_comm m), !Z.land_assoc, !land255 by lia. f_equal. lia. }
  rewrite !L by lia. change (Z.land 8 1) with 0. change (Z.land 8 8) with 8. cbn [Z.eqb negb]. shrc 8 256. rewrite land255. do 3 f_equal. lia.
Qed.
