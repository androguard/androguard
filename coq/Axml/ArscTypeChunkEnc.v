(* C28 - the whole type chunk in each of the three encodings of the entry-offset array: 32-bit offsets, 16-bit offsets
   (FLAG_OFFSET16) and sparse (FLAG_SPARSE) *)
From Coq Require Import ZArith List Bool Lia ZifyBool.
Require Import V.Lib.Val V.Lib.Result V.Lib.Struct V.Axml.PoolModel V.Axml.PoolProofs V.Axml.ArscTypeModel V.Axml.ArscTypeProofs V.Axml.ArscComplex V.Axml.ArscTypeChunk.
Import ListNotations.
Open Scope Z_scope.

Definition type_chunk_bytes_gen (tid fl cnt : Z) (cfg oa : list Z) (slots : list (option erec)) : list Z :=
  let hs := 20 + len cfg in
  let estart := hs + len oa in
  b16 513 ++ b16 hs ++ b32 (estart + len (body_bytes slots)) ++ [tid; fl] ++ b16 0 ++ b32 cnt ++ b32 estart ++ cfg ++ oa ++ body_bytes slots.
Lemma len_type_chunk_gen tid fl cnt cfg oa slots : len (type_chunk_bytes_gen tid fl cnt cfg oa slots) = 20 + len cfg + len oa + len (body_bytes slots).
Proof. unfold type_chunk_bytes_gen. cbv zeta. autorewrite with len. lia. Qed.

Theorem type_chunk_exact_gen pre tid fl cnt S tail oa slots rest pkg :
  52 <= S < 65516 -> len tail = S - 4 -> Forall wf_slot slots -> 0 <= cnt < 4294967296 ->
  20 + S + len oa + len (body_bytes slots) < 4294967295 ->
  (forall fuel rest', len oa <= Z.of_nat fuel ->
     read_offsets fuel fl 0 cnt (pkg * 16777216 + tid * 65536) (oa ++ rest') = Ok (present (pkg * 16777216 + tid * 65536) 0 (slot_offsets 0 slots))) ->
  parse_type_chunk (pre ++ type_chunk_bytes_gen tid fl cnt (b32 S ++ tail) oa slots ++ rest) (len pre) pkg =
  Ok {| t_id := tid; t_flags := fl; t_count := cnt; t_entries := expected (pkg * 16777216 + tid * 65536) 0 slots |}.
Proof.
  intros HS Ht Hw Hc Hsz HOA. unfold type_chunk_bytes_gen. cbv zeta. rewrite <- !app_assoc.
  eapply type_chunk_at; [apply tail_at_here | try eassumption; autorewrite with len; lia ..].
Qed.
Lemma type_chunk_gen_at {buf p tid fl cnt S tail oa slots rest} pkg :
  tail_at buf p (type_chunk_bytes_gen tid fl cnt (b32 S ++ tail) oa slots ++ rest) ->
  52 <= S < 65516 -> len tail = S - 4 -> Forall wf_slot slots -> 0 <= cnt < 4294967296 ->
  20 + S + len oa + len (body_bytes slots) < 4294967295 ->
  (forall fuel rest', len oa <= Z.of_nat fuel ->
     read_offsets fuel fl 0 cnt (pkg * 16777216 + tid * 65536) (oa ++ rest') = Ok (present (pkg * 16777216 + tid * 65536) 0 (slot_offsets 0 slots))) ->
  parse_type_chunk buf p pkg = Ok {| t_id := tid; t_flags := fl; t_count := cnt; t_entries := expected (pkg * 16777216 + tid * 65536) 0 slots |}.
Proof. intros (pre & -> & <-). apply type_chunk_exact_gen. Qed.
Lemma type_chunk_bytes_dense tid cfg slots :
  type_chunk_bytes tid cfg slots = type_chunk_bytes_gen tid 0 (Z.of_nat (length slots)) cfg (flat_map enc32 (slot_offsets 0 slots)) slots.
Proof. unfold type_chunk_bytes, type_chunk_bytes_gen. cbv zeta. now autorewrite with len. Qed.

Lemma len_erec_mod4 r : len (erec_bytes r) mod 4 = 0 /\ 0 < len (erec_bytes r).
Proof.
  destruct r as [fl ix ty da|k ty da|sz fl ix pa items].
  - change (len (erec_bytes (RPlain fl ix ty da))) with 16. lia.
  - change (len (erec_bytes (RCompact k ty da))) with 8. lia.
  - rewrite len_erec_complex. lia.
Qed.
Lemma slot_offsets_ok16 : forall slots a, 0 <= a -> a mod 4 = 0 -> a + len (body_bytes slots) < 4 * 65535 -> Forall ok16 (slot_offsets a slots).
Proof.
  induction slots as [|[e|] r IH]; intros a Ha Hm Hb; cbn [slot_offsets]; constructor; try exact I; try now apply IH.
  all: rewrite len_body_cons in Hb; destruct (len_erec_mod4 e) as [M P]; pose proof (len_nonneg (body_bytes r)).
  - cbn [ok16]. lia.
  - apply IH; lia.
Qed.
Lemma len_enc16s l : len (flat_map enc16 l) = 2 * Z.of_nat (length l).
Proof. now apply len_flat_map. Qed.
(* 16-bit offsets (FLAG_OFFSET16): offset / 4 in two bytes, 0xffff for a missing entry *)
Lemma offset16_array slots base : len (body_bytes slots) < 4 * 65535 -> forall fuel rest, len (flat_map enc16 (slot_offsets 0 slots)) <= Z.of_nat fuel ->
  read_offsets fuel 2 0 (Z.of_nat (length slots)) base (flat_map enc16 (slot_offsets 0 slots) ++ rest) = Ok (present base 0 (slot_offsets 0 slots)).
Proof.
  intros Hb fuel rest Hf. rewrite len_enc16s, slot_offsets_length in Hf. rewrite <- (slot_offsets_length slots 0).
  apply (offset16_offsets_exact _ fuel 0); [apply slot_offsets_ok16; lia | rewrite slot_offsets_length; lia].
Qed.

(* sparse (FLAG_SPARSE): only the existing entries are listed, each as (index, offset / 4) *)
Fixpoint sparse_items (i at0 : Z) (slots : list (option erec)) : list (Z * Z) :=
  match slots with
  | [] => []
  | None :: r => sparse_items (i + 1) at0 r
  | Some e :: r => (i, at0) :: sparse_items (i + 1) (at0 + len (erec_bytes e)) r
  end.
Lemma sparse_items_present : forall slots base i a,
  map (fun p => (snd p, base + fst p)) (sparse_items i a slots) = present base i (slot_offsets a slots).
Proof. induction slots as [|[e|] r IH]; intros base i a; cbn [sparse_items slot_offsets present map fst snd]; [reflexivity | now rewrite IH | apply IH]. Qed.
Lemma sparse_items_ok : forall slots i a, 0 <= i -> i + Z.of_nat (length slots) <= 65536 -> 0 <= a -> a mod 4 = 0 -> a + len (body_bytes slots) < 4 * 65536 ->
  Forall ok_sparse (sparse_items i a slots).
Proof.
  induction slots as [|[e|] r IH]; intros i a Hi Hn Ha Hm Hb; cbn [sparse_items]; cbn [length] in Hn; [constructor | | apply IH; try lia; exact Hb].
  rewrite len_body_cons in Hb. destruct (len_erec_mod4 e) as [M P]. pose proof (len_nonneg (body_bytes r)).
  constructor; [unfold ok_sparse; cbn [fst snd] | apply IH]; lia.
Qed.
Lemma sparse_items_length : forall slots i a, (length (sparse_items i a slots) <= length slots)%nat.
Proof. induction slots as [|[e|] r IH]; intros i a; cbn [sparse_items length]; [lia | specialize (IH (i + 1) (a + len (erec_bytes e))); lia | specialize (IH (i + 1) a); lia]. Qed.
Lemma len_sparse l : len (flat_map enc_sparse l) = 4 * Z.of_nat (length l).
Proof. now apply len_flat_map. Qed.
#[export] Hint Rewrite len_enc16s len_sparse : len.
Lemma sparse_array slots base : len (body_bytes slots) < 4 * 65536 -> Z.of_nat (length slots) <= 65536 ->
  forall fuel rest, len (flat_map enc_sparse (sparse_items 0 0 slots)) <= Z.of_nat fuel ->
  read_offsets fuel 1 0 (Z.of_nat (length (sparse_items 0 0 slots))) base (flat_map enc_sparse (sparse_items 0 0 slots) ++ rest) = Ok (present base 0 (slot_offsets 0 slots)).
Proof.
  intros Hb Hn fuel rest Hf. rewrite len_sparse in Hf. rewrite <- sparse_items_present.
  apply (sparse_offsets_exact _ fuel 0); [apply sparse_items_ok; lia | lia].
Qed.

(* 32-bit offsets: the theorem of ArscTypeChunk.v again, as an instance *)
Theorem type_chunk_dense pre tid S tail slots rest pkg :
  52 <= S < 65516 -> len tail = S - 4 -> Forall wf_slot slots -> 20 + S + 4 * Z.of_nat (length slots) + len (body_bytes slots) < 4294967295 ->
  parse_type_chunk (pre ++ type_chunk_bytes_gen tid 0 (Z.of_nat (length slots)) (b32 S ++ tail) (flat_map enc32 (slot_offsets 0 slots)) slots ++ rest) (len pre) pkg =
  Ok {| t_id := tid; t_flags := 0; t_count := Z.of_nat (length slots); t_entries := expected (pkg * 16777216 + tid * 65536) 0 slots |}.
Proof.
  intros HS Ht Hw Hsz. pose proof (len_nonneg (body_bytes slots)).
  apply type_chunk_exact_gen; try assumption; [lia | autorewrite with len; lia | apply dense_array; lia].
Qed.
Theorem type_chunk_offset16 pre tid S tail slots rest pkg :
  52 <= S < 65516 -> len tail = S - 4 -> Forall wf_slot slots -> len (body_bytes slots) < 4 * 65535 -> 20 + S + 2 * Z.of_nat (length slots) + len (body_bytes slots) < 4294967295 ->
  parse_type_chunk (pre ++ type_chunk_bytes_gen tid 2 (Z.of_nat (length slots)) (b32 S ++ tail) (flat_map enc16 (slot_offsets 0 slots)) slots ++ rest) (len pre) pkg =
  Ok {| t_id := tid; t_flags := 2; t_count := Z.of_nat (length slots); t_entries := expected (pkg * 16777216 + tid * 65536) 0 slots |}.
Proof.
  intros HS Ht Hw Hb Hn. pose proof (len_nonneg (body_bytes slots)).
  apply type_chunk_exact_gen; try assumption; [lia | autorewrite with len; lia | now apply offset16_array].
Qed.
Theorem type_chunk_sparse pre tid S tail slots rest pkg :
  52 <= S < 65516 -> len tail = S - 4 -> Forall wf_slot slots -> len (body_bytes slots) < 4 * 65536 -> Z.of_nat (length slots) <= 65536 ->
  let items := sparse_items 0 0 slots in
  parse_type_chunk (pre ++ type_chunk_bytes_gen tid 1 (Z.of_nat (length items)) (b32 S ++ tail) (flat_map enc_sparse items) slots ++ rest) (len pre) pkg =
  Ok {| t_id := tid; t_flags := 1; t_count := Z.of_nat (length items); t_entries := expected (pkg * 16777216 + tid * 65536) 0 slots |}.
Proof.
  intros HS Ht Hw Hb Hn items. pose proof (len_nonneg (body_bytes slots)). pose proof (sparse_items_length slots 0 0) as Ll. fold items in Ll.
  apply type_chunk_exact_gen; try assumption; [lia | autorewrite with len; lia | now apply sparse_array].
Qed.

Example encodings_example :
  let slots := [Some (RPlain 0 7 3 42); None; Some (RCompact 9 16 1000)] in
  parse_type_chunk ([5] ++ type_chunk_bytes_gen 2 2 3 (b32 64 ++ repeat 0 60) (flat_map enc16 (slot_offsets 0 slots)) slots ++ [1]) 1 127 =
    Ok {| t_id := 2; t_flags := 2; t_count := 3; t_entries := expected (127 * 16777216 + 2 * 65536) 0 slots |} /\
  parse_type_chunk ([5] ++ type_chunk_bytes_gen 2 1 2 (b32 64 ++ repeat 0 60) (flat_map enc_sparse (sparse_items 0 0 slots)) slots ++ [1]) 1 127 =
    Ok {| t_id := 2; t_flags := 1; t_count := 2; t_entries := expected (127 * 16777216 + 2 * 65536) 0 slots |}.
Proof. split; vm_compute; reflexivity. Qed.
Print Assumptions type_chunk_sparse.
