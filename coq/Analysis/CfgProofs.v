(* C10 C11 C12 C40 - the blocks of a method are a chain of contiguous runs that concatenate to its code, cut only at leaders
   and after branches; build_ind states the four cases of the builder once.  Lookup by offset, fall-through, the try range a
   block reports and the block boundaries follow from the chain. *)
From Coq Require Import ZArith List Bool Lia.
Require Import V.Lib.Val V.Lib.Result V.Lib.ListFacts V.Analysis.CfgModel.
Import ListNotations.
Open Scope Z_scope.

Lemma memZ_In : forall x l, memZ x l = true <-> In x l.
Proof. exact existsb_eqb_In. Qed.

Lemma removelast_incl : forall {A} (l : list A) x, In x (removelast l) -> In x l.
Proof. induction l as [|a l IH]; intros x H; [destruct H|]. destruct l; [destruct H|]. destruct H as [<-|H]; [left; reflexivity|right; apply IH, H]. Qed.
Lemma rev_cons_app : forall {A} (x : A) l r, rev (x :: l) ++ r = rev l ++ x :: r.
Proof. intros. simpl. rewrite <- app_assoc. reflexivity. Qed.

Definition code_len (p : list (Z * ins)) : Z := fold_left (fun a q => a + ilen (snd q)) p 0.
Definition contig (s : Z) (p : list (Z * ins)) : Prop := p = with_off s (map snd p).

Lemma fold_len_shift : forall p a, fold_left (fun a q => a + ilen (snd q)) p a = a + code_len p.
Proof.
  unfold code_len. induction p as [|q p IH]; intros a; cbn [fold_left]; [lia|].
  rewrite (IH (a + ilen (snd q))), (IH (0 + ilen (snd q))). lia.
Qed.
Lemma code_len_app : forall p q, code_len (p ++ q) = code_len p + code_len q.
Proof. intros. unfold code_len. rewrite fold_left_app. rewrite fold_len_shift. reflexivity. Qed.
Lemma code_len_cons : forall x p, code_len (x :: p) = ilen (snd x) + code_len p.
Proof. intros. unfold code_len. cbn [fold_left]. rewrite fold_len_shift. unfold code_len. lia. Qed.
Lemma code_len_snoc : forall p x, code_len (p ++ [x]) = code_len p + ilen (snd x).
Proof. intros. rewrite code_len_app, code_len_cons. change (code_len []) with 0. lia. Qed.
Lemma b_end_eq : forall b, b_end b = b_start b + code_len (b_ins b).
Proof. intros. reflexivity. Qed.

Lemma with_off_app : forall a b s, with_off s (a ++ b) = with_off s a ++ with_off (s + code_len (with_off s a)) b.
Proof.
  induction a as [|i a IH]; intros b s; cbn [app with_off].
  - change (code_len []) with 0. now rewrite Z.add_0_r.
  - rewrite IH, code_len_cons, Z.add_assoc. reflexivity.
Qed.
Lemma map_snd_with_off : forall l s, map snd (with_off s l) = l.
Proof. induction l as [|i l IH]; intros s; simpl; [reflexivity|]. now rewrite IH. Qed.
Lemma contig_with_off : forall s l, contig s (with_off s l).
Proof. intros. unfold contig. now rewrite map_snd_with_off. Qed.

Lemma contig_cons : forall s x p, contig s (x :: p) <-> fst x = s /\ contig (s + ilen (snd x)) p.
Proof.
  intros s [o i] p. unfold contig. cbn [map with_off fst snd]. split.
  - intros [= -> H]. auto.
  - intros [-> H]. f_equal. exact H.
Qed.
Lemma contig_app : forall p s q, contig s (p ++ q) <-> contig s p /\ contig (s + code_len p) q.
Proof.
  induction p as [|x p IH]; intros s q; cbn [app].
  - change (code_len []) with 0. rewrite Z.add_0_r. split; [intros H; split; [reflexivity|exact H]|intros [_ H]; exact H].
  - rewrite !contig_cons, IH, code_len_cons, Z.add_assoc. tauto.
Qed.
Lemma contig_app_intro : forall p s q, contig s p -> contig (s + code_len p) q -> contig s (p ++ q).
Proof. intros p s q H1 H2. apply contig_app. split; assumption. Qed.
Lemma contig_mid {p s x r} : contig s (p ++ x :: r) -> fst x = s + code_len p.
Proof. intros H. apply contig_app in H as [_ H]. apply contig_cons in H. apply H. Qed.
Lemma contig_last {s p x} : contig s p -> last (map Some p) None = Some x -> fst x + ilen (snd x) = s + code_len p.
Proof.
  intros Hc Hl. induction p as [|y p _] using rev_ind; [discriminate|].
  rewrite map_app in Hl. cbn [map] in Hl. rewrite last_last in Hl. injection Hl as ->.
  rewrite (contig_mid Hc), code_len_snoc. lia.
Qed.

(* instructions are at least one code unit long *)
Definition sized (insl : list ins) : Prop := Forall (fun i => 2 <= ilen i) insl.
Lemma sized_with_off {insl} s : sized insl -> Forall (fun q => 2 <= ilen (snd q)) (with_off s insl).
Proof. intros Hs. rewrite <- (map_snd_with_off insl s) in Hs. exact (proj1 (Forall_map snd _ _) Hs). Qed.
Lemma code_len_nonneg : forall p, Forall (fun q => 2 <= ilen (snd q)) p -> 0 <= code_len p.
Proof. induction 1 as [|x p Hx _ IH]; [apply Z.le_refl|rewrite code_len_cons; lia]. Qed.
Lemma contig_in_range {p s q} : contig s p -> Forall (fun x => 2 <= ilen (snd x)) p -> In q p ->
  s <= fst q /\ fst q + ilen (snd q) <= s + code_len p.
Proof.
  intros Hc Hf Hin. apply in_split in Hin as (a & b & ->). rewrite (contig_mid Hc), code_len_app, code_len_cons.
  apply Forall_app in Hf as [Ha Hb]. apply Forall_inv_tail in Hb. apply code_len_nonneg in Ha, Hb. lia.
Qed.

Fixpoint chain (s : Z) (bs : list block) (e : Z) : Prop :=
  match bs with
  | [] => s = e
  | b :: r => b_start b = s /\ b_ins b <> [] /\ contig s (b_ins b) /\ chain (b_end b) r e
  end.
Lemma chain_app : forall a s b e, chain s (a ++ b) e <-> exists m, chain s a m /\ chain m b e.
Proof.
  induction a as [|x a IH]; intros s b e; simpl.
  - split; [intros H; exists s; split; [reflexivity|exact H]|intros [m [-> H]]; exact H].
  - rewrite IH. split.
    + intros [H1 [H2 [H3 [m [H4 H5]]]]]. exists m. tauto.
    + intros [m [[H1 [H2 [H3 H4]]] H5]]. repeat split; try assumption. exists m. tauto.
Qed.
Lemma chain_after : forall pre s b post e, chain s (pre ++ b :: post) e -> chain (b_end b) post e.
Proof. intros pre s b post e H. apply chain_app in H as (m & _ & H). apply H. Qed.
Lemma chain_In {bs s e b} : chain s bs e -> In b bs -> b_ins b <> [] /\ contig (b_start b) (b_ins b).
Proof.
  revert s. induction bs as [|x bs IH]; intros s Hc Hb; [destruct Hb|]. cbn [chain] in Hc. destruct Hc as (H1 & H2 & H3 & H4).
  destruct Hb as [<-|Hb]; [rewrite H1; split; assumption|exact (IH _ H4 Hb)].
Qed.

Definition blk (s : Z) (cur : list (Z * ins)) : block := {| b_start := s; b_ins := rev cur |}.

Lemma chain_blk : forall s cur bs e, cur <> [] -> contig s (rev cur) -> chain (s + code_len (rev cur)) bs e ->
  chain s (blk s cur :: bs) e.
Proof.
  intros s cur bs e Hc Hg Hr. split; [reflexivity|]. split; [|split; [exact Hg|exact Hr]].
  intros E. apply Hc. rewrite <- (rev_involutive cur). exact (f_equal (@rev _) E).
Qed.

Section Build.
Variables l hk : list Z.

Lemma build_done : forall code cs cur done, build l hk code cs cur done = rev done ++ build l hk code cs cur [].
Proof.
  induction code as [|[idx i] rest IH]; intros cs cur done; cbn [build].
  - destruct cur; cbn [rev app]; [rewrite app_nil_r|]; reflexivity.
  - destruct (memZ idx l && _), (memZ idx hk); try apply IH;
      rewrite !(IH _ _ (_ :: _)); cbn [rev app]; rewrite <- ?app_assoc; reflexivity.
Qed.

Lemma build_nil : forall cs cur, build l hk [] cs cur [] = match cur with [] => [] | _ => [blk cs cur] end.
Proof. intros cs [|y cur]; reflexivity. Qed.
(* a leader closes the open block, and is then processed as the first instruction of a new one *)
Lemma build_leader : forall x rest cs cur, memZ (fst x) l = true -> cur <> [] ->
  build l hk (x :: rest) cs cur [] = blk cs cur :: build l hk (x :: rest) (fst x) [] [].
Proof.
  intros [idx i] rest cs [|y cur] Hl Hc; [congruence|]. cbn [build fst] in *. rewrite Hl. cbn [andb negb].
  destruct (memZ idx hk); rewrite !(build_done _ _ _ (_ :: _)); reflexivity.
Qed.
(* otherwise the instruction joins the open block, and closes it if it branches *)
Lemma build_push : forall x rest cs cur, memZ (fst x) l = false \/ cur = [] ->
  build l hk (x :: rest) cs cur [] =
  if memZ (fst x) hk then blk cs (x :: cur) :: build l hk rest (fst x + ilen (snd x)) [] []
  else build l hk rest cs (x :: cur) [].
Proof.
  intros [idx i] rest cs cur H. cbn [build fst snd] in *.
  replace (memZ idx l && _) with false by (destruct H as [-> | ->]; [reflexivity|symmetry; apply andb_false_r]).
  destruct (memZ idx hk); [rewrite build_done|]; reflexivity.
Qed.
Arguments build_push {x rest cs cur}.

Lemma build_ind : forall P : list (Z * ins) -> Z -> list (Z * ins) -> list block -> Prop,
  (forall cs cur, P [] cs cur (match cur with [] => [] | _ => [blk cs cur] end)) ->
  (forall x rest cs cur bs, cur <> [] -> memZ (fst x) l = true ->
     P (x :: rest) (fst x) [] bs -> P (x :: rest) cs cur (blk cs cur :: bs)) ->
  (forall x rest cs cur bs, memZ (fst x) l = false \/ cur = [] -> memZ (fst x) hk = true ->
     P rest (fst x + ilen (snd x)) [] bs -> P (x :: rest) cs cur (blk cs (x :: cur) :: bs)) ->
  (forall x rest cs cur bs, memZ (fst x) l = false \/ cur = [] -> memZ (fst x) hk = false ->
     P rest cs (x :: cur) bs -> P (x :: rest) cs cur bs) ->
  forall code cs cur, P code cs cur (build l hk code cs cur []).
Proof.
  intros P Hnil Hlead Hbr Hpl. induction code as [|x rest IH]; intros cs cur; [rewrite build_nil; apply Hnil|].
  (* first with no leader to close for; a leader then meets an empty open block *)
  assert (Hpush : forall cs cur, memZ (fst x) l = false \/ cur = [] -> P (x :: rest) cs cur (build l hk (x :: rest) cs cur [])).
  { intros cs' cur' H. rewrite (build_push H). destruct (memZ (fst x) hk) eqn:E; [apply Hbr|apply Hpl]; auto. }
  destruct cur as [|y cur]; [apply Hpush; right; reflexivity|]. destruct (memZ (fst x) l) eqn:El.
  - rewrite build_leader by (exact El || discriminate). apply Hlead; [discriminate|exact El|apply Hpush; right; reflexivity].
  - apply Hpush. left. reflexivity.
Qed.

Lemma build_concat : forall code cs cur, concat (map b_ins (build l hk code cs cur [])) = rev cur ++ code.
Proof.
  apply (build_ind (fun code cs cur bs => concat (map b_ins bs) = rev cur ++ code)).
  - intros cs [|y cur]; reflexivity.
  - intros x rest cs cur bs _ _ IH. cbn [map concat]. rewrite IH. reflexivity.
  - intros x rest cs cur bs _ _ IH. cbn [map concat]. rewrite IH. apply rev_cons_app.
  - intros x rest cs cur bs _ _ IH. rewrite IH. apply rev_cons_app.
Qed.

Lemma build_chain : forall code cs cur, contig cs (rev cur ++ code) ->
  chain cs (build l hk code cs cur []) (cs + code_len (rev cur ++ code)).
Proof.
  apply (build_ind (fun code cs cur bs => contig cs (rev cur ++ code) -> chain cs bs (cs + code_len (rev cur ++ code)))).
  - intros cs [|y cur] H; rewrite app_nil_r in *; [cbn; lia|]. apply chain_blk; [discriminate|exact H|reflexivity].
  - intros x rest cs cur bs Hc _ IH H. pose proof (contig_mid H) as Hx. apply contig_app in H as [H1 H2].
    apply chain_blk; [exact Hc|exact H1|]. rewrite code_len_app, Z.add_assoc, <- Hx. apply IH. rewrite Hx. exact H2.
  - intros x rest cs cur bs _ _ IH H. pose proof (contig_mid H) as Hx. rewrite <- rev_cons_app in H |- *.
    apply contig_app in H as [H1 H2]. apply chain_blk; [discriminate|exact H1|]. rewrite code_len_app, Z.add_assoc.
    replace (cs + code_len (rev (x :: cur))) with (fst x + ilen (snd x)) in * by (cbn [rev]; rewrite code_len_snoc; lia).
    exact (IH H2).
  - intros x rest cs cur bs _ _ IH H. rewrite rev_cons_app in IH. exact (IH H).
Qed.

(* where a block is not cut: no branch before its last instruction, no leader after its first;
   the open block has no branch at all *)
Definition uncut (p : list (Z * ins)) : Prop :=
  (forall q, In q (removelast p) -> memZ (fst q) hk = false) /\ (forall q, In q (tl p) -> memZ (fst q) l = false).
Definition open_run (p : list (Z * ins)) : Prop :=
  (forall q, In q p -> memZ (fst q) hk = false) /\ (forall q, In q (tl p) -> memZ (fst q) l = false).

Lemma open_nil : open_run [].
Proof. split; intros q []. Qed.
Lemma open_uncut : forall p, open_run p -> uncut p.
Proof. intros p [Hb Hl]. split; [intros q Hq; apply Hb, removelast_incl, Hq|exact Hl]. Qed.
Lemma uncut_push : forall cur x, open_run (rev cur) -> memZ (fst x) l = false \/ cur = [] ->
  uncut (rev (x :: cur)) /\ (memZ (fst x) hk = false -> open_run (rev (x :: cur))).
Proof.
  intros cur x [Hb Hl] Hx. cbn [rev].
  assert (Ht : forall q, In q (tl (rev cur ++ [x])) -> memZ (fst q) l = false).
  { destruct Hx as [Hx| ->]; [|intros q []]. revert Hl. destruct (rev cur) as [|y p]; [intros _ q []|]. cbn [app tl].
    intros Hl q Hq. apply in_app_or in Hq as [Hq|[<-|[]]]; [apply Hl, Hq|exact Hx]. }
  split; [split; [rewrite removelast_last; exact Hb|exact Ht]|]. intros Hk. split; [|exact Ht].
  intros q Hq. apply in_app_or in Hq as [Hq|[<-|[]]]; [apply Hb, Hq|exact Hk].
Qed.

Lemma build_uncut : forall code cs cur, open_run (rev cur) -> Forall (fun b => uncut (b_ins b)) (build l hk code cs cur []).
Proof.
  apply (build_ind (fun code cs cur bs => open_run (rev cur) -> Forall (fun b => uncut (b_ins b)) bs)).
  - intros cs [|y cur] H; [constructor|]. constructor; [apply open_uncut, H|constructor].
  - intros x rest cs cur bs _ _ IH H. constructor; [apply open_uncut, H|apply IH, open_nil].
  - intros x rest cs cur bs Hx _ IH H. constructor; [apply (uncut_push cur x H Hx)|apply IH, open_nil].
  - intros x rest cs cur bs Hx Hk IH H. apply IH, (uncut_push cur x H Hx), Hk.
Qed.
End Build.

Theorem blocks_partition : forall insl excs,
  let code := with_off 0 insl in
  chain 0 (blocks_of code excs) (code_len code) /\ concat (map b_ins (blocks_of code excs)) = code.
Proof.
  intros insl excs code. unfold blocks_of. split; [|apply build_concat].
  apply (build_chain _ _ code 0 []), contig_with_off.
Qed.
Lemma blocks_uncut {code excs b} : In b (blocks_of code excs) ->
  uncut (leaders code excs) (map fst (branch_map code)) (b_ins b).
Proof. revert b. apply Forall_forall, build_uncut, open_nil. Qed.

Lemma in_branch_map : forall code o i, In (o, i) code -> is_branch (ikind i) = true ->
  In (o, determine_next code o i) (branch_map code).
Proof.
  intros code o i Hin Hbr. unfold branch_map. apply in_flat_map. exists (o, i). split; [exact Hin|].
  cbn [fst snd]. rewrite Hbr. left. reflexivity.
Qed.
Lemma in_leaders_branch {code excs} o i {v} : In (o, i) code -> is_branch (ikind i) = true ->
  In v (determine_next code o i) -> In v (leaders code excs).
Proof.
  intros Ho Hbr Hv. apply in_or_app. left. apply in_flat_map. exists (o, determine_next code o i).
  split; [apply in_branch_map; assumption|exact Hv].
Qed.
Lemma in_leaders_try {code excs} e {v} : In e excs -> In v (e_start e :: map snd (e_handlers e)) -> In v (leaders code excs).
Proof. intros He Hv. apply in_or_app. right. apply in_flat_map. exists e. split; assumption. Qed.

Theorem blocks_branch_last : forall code excs b q, In b (blocks_of code excs) -> In q (removelast (b_ins b)) ->
  is_branch (ikind (snd q)) = true -> In q code -> False.
Proof.
  intros code excs b [o i] Hb Hq Hbr Hin. destruct (blocks_uncut Hb) as [H _]. specialize (H _ Hq).
  assert (memZ o (map fst (branch_map code)) = true); [|cbn [fst] in H; congruence].
  apply memZ_In. exact (in_map fst _ _ (in_branch_map code o i Hin Hbr)).
Qed.

Definition big (bs : list block) : Prop := forall b, In b bs -> 2 <= code_len (b_ins b).

Lemma chain_bounds {bs s e} : chain s bs e -> big bs -> s <= e /\ forall b, In b bs -> s <= b_start b /\ b_end b <= e.
Proof.
  revert s. induction bs as [|x bs IH]; intros s Hc Hb; cbn [chain] in Hc.
  - subst. split; [lia|intros b []].
  - destruct Hc as (H1 & _ & _ & H4). destruct (IH _ H4 (fun b Hi => Hb b (or_intror Hi))) as [G1 G2].
    pose proof (Hb x (or_introl eq_refl)) as Hx. rewrite b_end_eq in *.
    split; [lia|]. intros b [<-|Hin]; [rewrite b_end_eq; lia|]. destruct (G2 b Hin). lia.
Qed.
Lemma holds_iff : forall b v, (b_start b <=? v) && (v <? b_end b) = true <-> b_start b <= v < b_end b.
Proof. intros. rewrite andb_true_iff, Z.leb_le, Z.ltb_lt. reflexivity. Qed.
Lemma lookup_inv : forall bs v c, get_basic_block bs v = Some c -> In c bs /\ b_start c <= v < b_end c.
Proof. intros bs v c H. apply find_some in H as [H1 H2]. split; [exact H1|apply holds_iff, H2]. Qed.
(* the blocks before the holder end at or below its start *)
Lemma lookup_hit {bs s e c v} : chain s bs e -> big bs -> In c bs -> b_start c <= v < b_end c ->
  get_basic_block bs v = Some c.
Proof.
  revert s. induction bs as [|x bs IH]; intros s Hc Hb Hin Hv; [destruct Hin|]. cbn [chain] in Hc. destruct Hc as (_ & _ & _ & H4).
  assert (Hb' : big bs) by (intros b Hi; apply Hb; right; exact Hi).
  unfold get_basic_block. cbn [find]. destruct (_ && _) eqn:E.
  - apply holds_iff in E. destruct Hin as [->|Hin]; [reflexivity|].
    destruct (chain_bounds H4 Hb') as [_ G]. destruct (G c Hin). lia.
  - destruct Hin as [<-|Hin]; [apply holds_iff in Hv; congruence|]. exact (IH _ H4 Hb' Hin Hv).
Qed.
Lemma lookup_miss {bs s e v} : chain s bs e -> big bs -> (v < s \/ e <= v) -> get_basic_block bs v = None.
Proof.
  intros Hc Hb Hv. destruct (get_basic_block bs v) as [c|] eqn:E; [|reflexivity].
  apply lookup_inv in E as [Hin Hr]. destruct (chain_bounds Hc Hb) as [_ G]. destruct (G c Hin). lia.
Qed.

Definition wf_excs (code : list (Z * ins)) (excs : list exc) : Prop :=
  (forall e, In e excs -> In (e_start e) (map fst code)) /\
  (forall e1 e2, In e1 excs -> In e2 excs -> e1 = e2 \/ e_end e1 < e_start e2 \/ e_end e2 < e_start e1).

Section Method.
Variables (insl : list ins) (excs : list exc).
Let code := with_off 0 insl.
Let bs := blocks_of code excs.

Lemma blocks_chain : chain 0 bs (code_len code).
Proof. exact (proj1 (blocks_partition insl excs)). Qed.
Lemma blocks_concat : concat (map b_ins bs) = code.
Proof. exact (proj2 (blocks_partition insl excs)). Qed.
Lemma in_block : forall b q, In b bs -> In q (b_ins b) -> In q code.
Proof. intros b q Hb Hq. rewrite <- blocks_concat. apply in_concat. exists (b_ins b). split; [apply in_map, Hb|exact Hq]. Qed.
Lemma block_contig : forall b, In b bs -> b_ins b <> [] /\ contig (b_start b) (b_ins b).
Proof. intros b. exact (chain_In blocks_chain). Qed.
Lemma block_head : forall b, In b bs -> exists q r, b_ins b = q :: r /\ fst q = b_start b.
Proof.
  intros b Hb. destruct (block_contig b Hb) as [Hne Hc]. destruct (b_ins b) as [|q r]; [congruence|].
  exists q, r. split; [reflexivity|]. apply contig_cons in Hc. apply Hc.
Qed.
Lemma block_sized : forall b, sized insl -> In b bs -> Forall (fun q => 2 <= ilen (snd q)) (b_ins b).
Proof. intros b Hs Hb. exact (incl_Forall (fun q => in_block b q Hb) (sized_with_off 0 Hs)). Qed.
Lemma blocks_big : sized insl -> big bs.
Proof.
  intros Hs b Hb. destruct (block_contig b Hb) as [Hne _]. pose proof (block_sized b Hs Hb) as F.
  destruct (b_ins b) as [|x p]; [congruence|]. apply Forall_cons_iff in F as [Hx Hp]. apply code_len_nonneg in Hp.
  rewrite code_len_cons. lia.
Qed.

(* C10: every leader that is an instruction offset begins a block *)
Theorem leaders_begin_blocks : forall q, In q code -> In (fst q) (leaders code excs) ->
  exists b, In b bs /\ b_start b = fst q /\ hd_error (b_ins b) = Some q.
Proof.
  intros q Hq Hl. rewrite <- blocks_concat in Hq. apply in_concat in Hq as (p & Hp & Hq).
  apply in_map_iff in Hp as (b & <- & Hb). exists b. split; [exact Hb|].
  destruct (block_head b Hb) as (h & t & E & Hh), (blocks_uncut Hb) as [_ Hu]. rewrite E in *.
  destruct Hq as [->|Hq]; [split; [symmetry; exact Hh|reflexivity]|].
  apply memZ_In in Hl. rewrite (Hu q Hq) in Hl. discriminate.
Qed.

(* C40: block boundaries are instruction offsets *)
Lemma block_instruction_range : forall b q, sized insl -> In b bs -> In q (b_ins b) ->
  b_start b <= fst q /\ fst q + ilen (snd q) <= b_end b /\ In q code.
Proof.
  intros b q Hs Hb Hq. destruct (block_contig b Hb) as [_ Hc].
  destruct (contig_in_range Hc (block_sized b Hs Hb) Hq).
  rewrite b_end_eq. split; [|split; [|exact (in_block b q Hb Hq)]]; assumption.
Qed.
Theorem block_boundaries : forall b, In b bs ->
  In (b_start b) (map fst code) /\ (In (b_end b) (map fst code) \/ b_end b = code_len code).
Proof.
  assert (Hs : forall b, In b bs -> In (b_start b) (map fst code)).
  { intros b Hb. destruct (block_head b Hb) as (q & r & E & <-). apply in_map, (in_block b q Hb). rewrite E. left. reflexivity. }
  intros b Hb. split; [apply Hs, Hb|]. apply in_split in Hb as (pre & post & E).
  pose proof blocks_chain as Hch. rewrite E in Hch. apply chain_after in Hch. destruct post as [|c post].
  - right. exact Hch.
  - left. destruct Hch as [<- _]. apply Hs. rewrite E. apply in_or_app. right. right. left. reflexivity.
Qed.

(* C11: the last instruction of a block ends the block; falling through reaches the next block of the list *)
Lemma last_instruction_ends_block : forall b lidx li, In b bs -> b_last b = Some (lidx, li) -> lidx + ilen li = b_end b.
Proof. intros b lidx li Hb Hl. exact (contig_last (proj2 (block_contig b Hb)) Hl). Qed.
Lemma next_block_lookup : forall pre b c post, sized insl -> bs = pre ++ b :: c :: post ->
  get_basic_block bs (b_end b + 1) = Some c /\ get_basic_block bs (b_end b) = Some c /\ b_start c = b_end b.
Proof.
  intros pre b c post Hs E. pose proof blocks_chain as Hch. rewrite E in Hch. apply chain_after in Hch as [H3 _].
  assert (Hc : In c bs) by (rewrite E; apply in_or_app; right; right; left; reflexivity).
  pose proof (blocks_big Hs c Hc) as Hl.
  split; [|split; [|exact H3]]; apply (lookup_hit blocks_chain (blocks_big Hs) Hc); rewrite (b_end_eq c); lia.
Qed.
Lemma last_block_no_successor : forall pre b, sized insl -> bs = pre ++ [b] -> get_basic_block bs (b_end b + 1) = None.
Proof.
  intros pre b Hs E. apply (lookup_miss blocks_chain (blocks_big Hs)). right.
  pose proof blocks_chain as Hch. rewrite E in Hch. apply chain_after in Hch. cbn [chain] in Hch. lia.
Qed.

(* C12: which try range a block reports *)
Lemma try_start_not_inside : forall e b,
  sized insl -> In e excs -> In (e_start e) (map fst code) -> In b bs -> b_start b <= e_start e < b_end b -> e_start e = b_start b.
Proof.
  intros e b Hs He Hoff Hb Hr. apply in_map_iff in Hoff as (q & Hq1 & Hq2).
  destruct (leaders_begin_blocks q Hq2) as (c & Hc & Hcs & _).
  { rewrite Hq1. apply (in_leaders_try e); [exact He|left; reflexivity]. }
  pose proof (blocks_big Hs) as Hbig.
  assert (L : get_basic_block bs (e_start e) = Some c).
  { apply (lookup_hit blocks_chain Hbig Hc). pose proof (Hbig c Hc). rewrite b_end_eq. lia. }
  rewrite (lookup_hit blocks_chain Hbig Hb Hr) in L. injection L as <-. congruence.
Qed.
Lemma try_start_before : forall e b, sized insl -> wf_excs code excs -> In e excs -> In b bs ->
  e_start e < b_end b -> e_start e <= b_start b.
Proof. intros e b Hs [Hw _] He Hb Hlt. pose proof (try_start_not_inside e b Hs He (Hw e He) Hb). lia. Qed.

Lemma overlap_iff : forall e b, (e_start e <=? b_end b - 1) && (b_start b <=? e_end e) = true <->
  e_start e < b_end b /\ b_start b <= e_end e.
Proof. intros. rewrite andb_true_iff, !Z.leb_le. lia. Qed.

Theorem block_exception_exact : forall b e,
  sized insl -> wf_excs code excs -> In b bs ->
  (block_exception excs b = Some e <-> In e excs /\ e_start e <= b_start b <= e_end e).
Proof.
  intros b e Hs Hw Hb. pose proof (blocks_big Hs b Hb) as Hlen. pose proof (b_end_eq b) as Hend.
  unfold block_exception. split.
  - intros H. apply find_some in H as [H1 H2]. apply overlap_iff in H2.
    pose proof (try_start_before e b Hs Hw H1 Hb). split; [exact H1|lia].
  - intros [H1 H2]. destruct (find _ excs) as [e'|] eqn:E.
    + apply find_some in E as [G1 G2]. apply overlap_iff in G2. pose proof (try_start_before e' b Hs Hw G1 Hb).
      destruct (proj2 Hw e e' H1 G1) as [->|Hd]; [reflexivity|lia].
    + apply (find_none _ _ E) in H1. apply not_true_iff_false in H1. rewrite overlap_iff in H1. lia.
Qed.
Theorem covered_instruction_reported : forall b q e,
  sized insl -> wf_excs code excs -> In b bs -> In q (b_ins b) -> In e excs ->
  e_start e <= fst q <= e_end e -> block_exception excs b = Some e.
Proof.
  intros b q e Hs Hw Hb Hq He Hcov. destruct (block_instruction_range b q Hs Hb Hq) as (H1 & H2 & Hin).
  pose proof (proj1 (Forall_forall _ _) (sized_with_off 0 Hs) q Hin : 2 <= ilen (snd q)). pose proof (try_start_before e b Hs Hw He Hb).
  apply (block_exception_exact b e Hs Hw Hb). split; [exact He|lia].
Qed.
Theorem reported_range_covers : forall b e,
  sized insl -> wf_excs code excs -> In b bs -> block_exception excs b = Some e ->
  exists q, hd_error (b_ins b) = Some q /\ e_start e <= fst q <= e_end e.
Proof.
  intros b e Hs Hw Hb H. apply (block_exception_exact b e Hs Hw Hb) in H as [_ H].
  destruct (block_head b Hb) as (q & r & E & Hq). exists q. rewrite E, Hq. split; [reflexivity|exact H].
Qed.
End Method.

Theorem lookup_exact : forall insl excs c v, sized insl ->
  let bs := blocks_of (with_off 0 insl) excs in
  (get_basic_block bs v = Some c <-> In c bs /\ b_start c <= v < b_end c).
Proof.
  intros insl excs c v Hs bs. split; [apply lookup_inv|]. intros [H1 H2].
  exact (lookup_hit (blocks_chain insl excs) (blocks_big insl excs Hs) H1 H2).
Qed.

(* C11: successors and predecessors *)
Definition lookup_targets (bs : list block) (lidx : Z) (vs : list Z) : list (Z * Z * Z) :=
  flat_map (fun v => if v =? -1 then [] else
                     match get_basic_block bs v with Some c => [(lidx, v, b_start c)] | None => [] end) vs.

Theorem childs_by_kind : forall code bs b lidx li, b_last b = Some (lidx, li) ->
  childs code bs b =
  match ikind li with
  | KExit => []
  | KGoto off => lookup_targets bs lidx [off * 2 + lidx]
  | KIf off => lookup_targets bs lidx [lidx + ilen li; off * 2 + lidx]
  | KSwitch off => lookup_targets bs lidx (determine_next code lidx li)
  | _ => match get_basic_block bs (b_end b + 1) with Some c => [(lidx, b_end b, b_start c)] | None => [] end
  end.
Proof. intros code bs b lidx li H. unfold childs, determine_next. rewrite H. destruct (ikind li); reflexivity. Qed.

(* the case targets of a switch: the instruction after it, then one target per payload entry when the (aligned) payload is found *)
Theorem switch_targets : forall code lidx li off, ikind li = KSwitch off ->
  determine_next code lidx li =
  (lidx + ilen li) ::
  match get_ins_off code (off * 2 + lidx + (if (off * 2 + lidx) mod 4 =? 0 then 0 else 4 - (off * 2 + lidx) mod 4)) with
  | Some {| ikind := KSwitchPayload ts |} => map (fun t => t * 2 + lidx) ts
  | _ => []
  end.
Proof. intros code lidx li off K. unfold determine_next. rewrite K. reflexivity. Qed.

Theorem fathers_inverse : forall code bs b tgt src fs,
  In (tgt, src, fs) (fathers code bs b) <-> exists f, In f bs /\ fs = b_start f /\ In (src, tgt, b_start b) (childs code bs f).
Proof.
  intros code bs b tgt src fs. unfold fathers. rewrite in_flat_map. split.
  - intros [f [Hf H]]. apply in_flat_map in H as [[[s t] cs] [Hc H]].
    destruct (Z.eqb_spec cs (b_start b)) as [->|]; [|destruct H]. destruct H as [[= -> -> <-]|[]]. exists f. auto.
  - intros [f [Hf [-> Hc]]]. exists f. split; [exact Hf|]. apply in_flat_map. exists (src, tgt, b_start b). split; [exact Hc|].
    rewrite Z.eqb_refl. left. reflexivity.
Qed.

Theorem special_ins_spec : forall code b idx r,
  In (idx, r) (special_ins code b) <->
  exists i off, In (idx, i) (b_ins b) /\ (ikind i = KSwitch off \/ ikind i = KFill off) /\
                r = option_map fst (find (fun q => fst q =? idx + off * 2) code).
Proof.
  intros code b idx r. unfold special_ins. rewrite in_flat_map. split.
  - intros [[o i] [Hin H]]. cbn [fst snd] in H.
    destruct (ikind i) eqn:K; try (now destruct H); destruct H as [[= <- <-]|[]]; exists i, off; auto.
  - intros [i [off [Hin [[K|K] ->]]]]; exists (idx, i); (split; [exact Hin|]); cbn [fst snd]; rewrite K; left; reflexivity.
Qed.
