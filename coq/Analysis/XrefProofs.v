(* C13 C14 C15 C16 - every cross-reference relation of the model is the rows of a function over the instruction sites, so
   membership, the order of the DEX files and their merge into one are each settled once (Section SiteRel).  Field accesses
   are listed only when the field is defined in the DEX of the instruction: the full C14, and the merge for fields, are refuted
   on two small programs. *)
From Coq Require Import ZArith List Bool Lia Permutation.
Require Import V.Lib.Val V.Lib.Result V.Lib.ListFacts V.Analysis.XrefModel.
Import ListNotations.
Open Scope Z_scope.

Lemma map_flat_map_ {A B C} (f : A -> list B) (g : B -> C) l : map g (flat_map f l) = flat_map (fun x => map g (f x)) l.
Proof. induction l as [|x l IH]; cbn [map flat_map]; [reflexivity | now rewrite map_app, IH]. Qed.
Lemma flat_map_flat_map_ {A B C} (f : A -> list B) (g : B -> list C) l :
  flat_map g (flat_map f l) = flat_map (fun x => flat_map g (f x)) l.
Proof. induction l as [|x l IH]; cbn [flat_map]; [reflexivity | now rewrite flat_map_app, IH]. Qed.
Lemma flat_map_concat_ {A B} (f : A -> list B) ll : flat_map f (concat ll) = flat_map (flat_map f) ll.
Proof. induction ll as [|l ll IH]; cbn [concat flat_map]; [reflexivity | now rewrite flat_map_app, IH]. Qed.
Lemma existsb_iff_eq {A} (f g : A -> bool) l l' :
  ((exists x, In x l /\ f x = true) <-> (exists x, In x l' /\ g x = true)) -> existsb f l = existsb g l'.
Proof.
  intros H. destruct (existsb f l) eqn:E1, (existsb g l') eqn:E2; try reflexivity.
  - apply existsb_exists in E1. apply H in E1. apply existsb_exists in E1. congruence.
  - apply existsb_exists in E2. apply H in E2. apply existsb_exists in E2. congruence.
Qed.

Lemma mkey_eqb_eq a b : mkey_eqb a b = true <-> a = b.
Proof.
  destruct a as [[a1 a2] a3], b as [[b1 b2] b3]; unfold mkey_eqb. rewrite !andb_true_iff, !Z.eqb_eq.
  split; [intros [[-> ->] ->]; reflexivity | intros E; injection E as -> -> ->; auto].
Qed.
Lemma row_eqb_eq a b : row_eqb a b = true <-> a = b.
Proof. exact (list_eqb_Z_eq a b). Qed.

Lemma in_sites p d k m oi :
  In (d, (k, (m, oi))) (sites p) <-> In d p /\ In k d /\ In m (c_methods k) /\ In oi (m_code m).
Proof.
  unfold sites. rewrite in_flat_map. split.
  - intros (d' & Hd & H). apply in_flat_map in H as (k' & Hk & H). apply in_flat_map in H as (m' & Hm & H).
    apply in_map_iff in H as (oi' & E & Hoi). injection E as <- <- <- <-. auto.
  - intros (Hd & Hk & Hm & Hoi). exists d; split; [exact Hd|]. apply in_flat_map; exists k; split; [exact Hk|].
    apply in_flat_map; exists m; split; [exact Hm|]. apply in_map_iff; exists oi; auto.
Qed.
Lemma sites_merged p : sites [concat p] = map (fun s => (concat p, snd s)) (sites p).
Proof.
  unfold sites. cbn [flat_map]. rewrite app_nil_r. generalize (concat p) at 1 3 as D. intros D.
  rewrite flat_map_concat_, map_flat_map_. apply flat_map_ext. intros d.
  rewrite map_flat_map_. apply flat_map_ext. intros k. rewrite map_flat_map_. apply flat_map_ext. intros m.
  rewrite map_map. reflexivity.
Qed.
Lemma sites_perm p p' : Permutation p p' -> Permutation (sites p) (sites p').
Proof. intros H. unfold sites. now apply Permutation_flat_map. Qed.

Section SiteRel.
Variable f : site -> list (list Z).
Lemma in_site_rel p r :
  In r (flat_map f (sites p)) <->
  exists d k m oi, In d p /\ In k d /\ In m (c_methods k) /\ In oi (m_code m) /\ In r (f (d, (k, (m, oi)))).
Proof.
  rewrite in_flat_map. split.
  - intros ((d & k & m & oi) & Hs & H). apply in_sites in Hs. exists d, k, m, oi. tauto.
  - intros (d & k & m & oi & Hd & Hk & Hm & Hi & H). exists (d, (k, (m, oi))). split; [apply in_sites; auto|exact H].
Qed.
Lemma site_rel_perm p p' : Permutation p p' -> Permutation (flat_map f (sites p)) (flat_map f (sites p')).
Proof. intros H. apply Permutation_flat_map, sites_perm, H. Qed.
(* one DEX holding all the classes: the same rows when f does not tell the merged DEX from the one of the site *)
Lemma site_rel_merged p :
  (forall d k m oi, In d p -> In k d -> In m (c_methods k) -> In oi (m_code m) -> f (concat p, (k, (m, oi))) = f (d, (k, (m, oi)))) ->
  flat_map f (sites [concat p]) = flat_map f (sites p).
Proof.
  intros H. rewrite sites_merged, !flat_map_concat_map, map_map. f_equal. apply map_ext_in.
  intros (d & k & m & oi) Hs. apply in_sites in Hs as (Hd & Hk & Hm & Hi). apply H; assumption.
Qed.
End SiteRel.

Lemma concat_perm {A} (l l' : list (list A)) : Permutation l l' -> Permutation (concat l) (concat l').
Proof. intros H. rewrite <- (map_id l), <- (map_id l'), <- !flat_map_concat_map. now apply Permutation_flat_map. Qed.

Lemma all_classes_merged p : all_classes [concat p] = all_classes p.
Proof. unfold all_classes. cbn [concat]. apply app_nil_r. Qed.
Lemma in_all_classes p k : In k (all_classes p) <-> exists d, In d p /\ In k d.
Proof. unfold all_classes. rewrite in_concat. split; intros (d & H1 & H2); exists d; auto. Qed.

Lemma internal_class_spec p c : internal_class p c = true <-> exists d k, In d p /\ In k d /\ c_name k = c.
Proof.
  unfold internal_class. rewrite existsb_exists. split.
  - intros (k & Hk & E). apply in_all_classes in Hk as (d & Hd & Hk). apply Z.eqb_eq in E. eauto.
  - intros (d & k & Hd & Hk & E). exists k. split; [apply in_all_classes; eauto | now apply Z.eqb_eq].
Qed.
Lemma in_internal_methods p key :
  In key (internal_methods p) <-> exists d k m, In d p /\ In k d /\ In m (c_methods k) /\ key = (c_name k, m_name m, m_desc m).
Proof.
  unfold internal_methods. rewrite in_flat_map. split.
  - intros (k & Hk & H). apply in_map_iff in H as (m & E & Hm). apply in_all_classes in Hk as (d & Hd & Hk). exists d, k, m. auto.
  - intros (d & k & m & Hd & Hk & Hm & ->). exists k. split; [apply in_all_classes; eauto|]. apply in_map_iff. eauto.
Qed.
Lemma internal_method_spec p c n ds :
  internal_method p (c, n, ds) = true <->
  exists d k m, In d p /\ In k d /\ In m (c_methods k) /\ c_name k = c /\ m_name m = n /\ m_desc m = ds.
Proof.
  unfold internal_method. rewrite existsb_exists. split.
  - intros (key & Hk & E). apply mkey_eqb_eq in E. subst key. apply in_internal_methods in Hk as (d & k & m & Hd & Hk & Hm & E).
    injection E as -> -> ->. exists d, k, m. repeat split; auto.
  - intros (d & k & m & Hd & Hk & Hm & <- & <- & <-). exists (c_name k, m_name m, m_desc m). split; [|now apply mkey_eqb_eq].
    apply in_internal_methods. exists d, k, m. auto.
Qed.
Lemma internal_class_perm p p' c : Permutation p p' -> internal_class p c = internal_class p' c.
Proof. intros H. apply existsb_perm, concat_perm, H. Qed.
Lemma internal_methods_perm p p' : Permutation p p' -> Permutation (internal_methods p) (internal_methods p').
Proof. intros H. apply Permutation_flat_map, concat_perm, H. Qed.
Lemma internal_method_perm p p' key : Permutation p p' -> internal_method p key = internal_method p' key.
Proof. intros H. apply existsb_perm, internal_methods_perm, H. Qed.
Lemma internal_method_merged p key : internal_method [concat p] key = internal_method p key.
Proof. unfold internal_method, internal_methods. now rewrite all_classes_merged. Qed.
Lemma internal_class_merged p c : internal_class [concat p] c = internal_class p c.
Proof. unfold internal_class. now rewrite all_classes_merged. Qed.

(* C13: calls *)
Lemma in_calls p r :
  In r (calls p) <->
  exists d k m off op dims base name desc,
    In d p /\ In k d /\ In m (c_methods k) /\ In (off, XInvoke op dims base name desc) (m_code m) /\ 0 <= base /\
    r = [c_name k; m_name m; m_desc m; base; name; desc; off; if internal_method p (base, name, desc) then 0 else 1].
Proof.
  unfold calls. rewrite in_site_rel. split.
  - intros (d & k & m & [off i] & Hd & Hk & Hm & Hi & H).
    destruct i as [op dims base name desc| | | | |]; cbn [call_rows] in H; try contradiction.
    destruct (Z.ltb_spec base 0); [contradiction|]. destruct H as [<-|[]].
    exists d, k, m, off, op, dims, base, name, desc. auto 10.
  - intros (d & k & m & off & op & dims & base & name & desc & Hd & Hk & Hm & Hi & Hb & ->).
    exists d, k, m, (off, XInvoke op dims base name desc). cbn [call_rows].
    destruct (Z.ltb_spec base 0); [lia|]. cbn [In]. auto 10.
Qed.

Lemma calls_mirror p a b c d e f off x :
  In [a; b; c; d; e; f; off; x] (callees_of p (a, b, c)) <-> In [a; b; c; d; e; f; off; x] (callers_of p (d, e, f)).
Proof. unfold callees_of, callers_of. rewrite !filter_In, !(proj2 (mkey_eqb_eq _ _) eq_refl). tauto. Qed.
Lemma callees_of_sound p key r : In r (callees_of p key) -> In r (calls p).
Proof. unfold callees_of. rewrite filter_In. tauto. Qed.
Lemma callers_of_sound p key r : In r (callers_of p key) -> In r (calls p).
Proof. unfold callers_of. rewrite filter_In. tauto. Qed.

Lemma in_call_edges p a b c d e f :
  In [a; b; c; d; e; f] (call_edges p) <-> exists off x, In [a; b; c; d; e; f; off; x] (calls p).
Proof.
  unfold call_edges. rewrite in_flat_map. split.
  - (* only a row of eight entries gives an edge *)
    intros (r & Hr & H). do 9 (destruct r as [|? r]; try contradiction). destruct H as [[= <- <- <- <- <- <-]|[]]. eauto.
  - intros (off & x & H). exists [a; b; c; d; e; f; off; x]. split; [exact H | left; reflexivity].
Qed.
Lemma call_edges_shape p r : In r (call_edges p) -> exists a b c d e f, r = [a; b; c; d; e; f].
Proof.
  unfold call_edges. rewrite in_flat_map. intros (r0 & _ & H).
  do 9 (destruct r0 as [|? r0]; try contradiction). destruct H as [<-|[]]. eauto 10.
Qed.

(* C15: strings and class usage *)
Lemma in_string_refs p r :
  In r (string_refs p) <->
  exists d k m off str, In d p /\ In k d /\ In m (c_methods k) /\ In (off, XConstString str) (m_code m) /\
    r = [str; c_name k; m_name m; m_desc m; off].
Proof.
  unfold string_refs. rewrite in_site_rel. split.
  - intros (d & k & m & [off i] & Hd & Hk & Hm & Hi & H).
    destruct i as [| str | | | |]; cbn [string_rows] in H; try contradiction. destruct H as [<-|[]].
    exists d, k, m, off, str. auto.
  - intros (d & k & m & off & str & Hd & Hk & Hm & Hi & ->). exists d, k, m, (off, XConstString str). cbn. auto 10.
Qed.
Lemma class_guard base c : (base <? 0) || (base =? c) = false <-> 0 <= base /\ base <> c.
Proof. rewrite orb_false_iff, Z.ltb_ge, Z.eqb_neq. reflexivity. Qed.
Lemma in_class_refs p r :
  In r (class_refs p) <->
  exists d k m off kind dims base, In d p /\ In k d /\ In m (c_methods k) /\
    ((kind = 34 /\ In (off, XNew dims base) (m_code m)) \/ (kind = 28 /\ In (off, XConstClass dims base) (m_code m))) /\
    0 <= base /\ base <> c_name k /\ r = [kind; base; c_name k; m_name m; m_desc m; off].
Proof.
  unfold class_refs. rewrite in_site_rel. split.
  - intros (d & k & m & [off i] & Hd & Hk & Hm & Hi & H).
    destruct i as [| | dims base | dims base | |]; cbn [class_rows] in H; try contradiction;
      (destruct (_ || _) eqn:E; [contradiction|]; apply class_guard in E as [E1 E2]; destruct H as [<-|[]]).
    + exists d, k, m, off, 34, dims, base. auto 10.
    + exists d, k, m, off, 28, dims, base. auto 10.
  - intros (d & k & m & off & kind & dims & base & Hd & Hk & Hm & Hi & Hb & Hn & ->).
    pose proof (proj2 (class_guard base (c_name k)) (conj Hb Hn)) as E.
    destruct Hi as [[-> Hi]|[-> Hi]].
    + exists d, k, m, (off, XNew dims base). cbn [class_rows]. rewrite E. cbn [In]. auto 10.
    + exists d, k, m, (off, XConstClass dims base). cbn [class_rows]. rewrite E. cbn [In]. auto 10.
Qed.

(* C14: fields *)
Lemma in_field_refs p r :
  In r (field_refs p) <->
  exists d k m off op cls name typ, In d p /\ In k d /\ In m (c_methods k) /\ In (off, XField op cls name typ) (m_code m) /\
    field_defined d cls name typ = true /\
    r = [if is_read op then 0 else 1; c_name k; cls; name; typ; m_name m; m_desc m; off].
Proof.
  unfold field_refs. rewrite in_site_rel. split.
  - intros (d & k & m & [off i] & Hd & Hk & Hm & Hi & H).
    destruct i as [| | | | op cls name typ |]; cbn [field_rows] in H; try contradiction.
    destruct (field_defined d cls name typ) eqn:E; [|contradiction]. destruct H as [<-|[]].
    exists d, k, m, off, op, cls, name, typ. auto 10.
  - intros (d & k & m & off & op & cls & name & typ & Hd & Hk & Hm & Hi & E & ->).
    exists d, k, m, (off, XField op cls name typ). cbn [field_rows]. rewrite E. cbn [In]. auto 10.
Qed.
Lemma field_defined_spec d cls name typ :
  field_defined d cls name typ = true <-> exists k, In k d /\ c_name k = cls /\ In (name, typ) (c_fields k).
Proof.
  unfold field_defined. rewrite existsb_exists. split.
  - intros (k & Hk & E). apply andb_true_iff in E as [E1 E2]. apply Z.eqb_eq in E1. apply existsb_exists in E2 as ([n t] & Hf & E).
    cbn [fst snd] in E. apply andb_true_iff in E as [En Et]. apply Z.eqb_eq in En, Et. subst. eauto.
  - intros (k & Hk & <- & Hf). exists k. split; [exact Hk|]. rewrite Z.eqb_refl. cbn [andb]. apply existsb_exists.
    exists (name, typ). cbn [fst snd]. now rewrite !Z.eqb_refl.
Qed.
(* the part of the statement that holds: accesses from inside the class that defines the field *)
Lemma own_class_access_listed p d k m off op name typ :
  In d p -> In k d -> In m (c_methods k) -> In (off, XField op (c_name k) name typ) (m_code m) -> In (name, typ) (c_fields k) ->
  In [if is_read op then 0 else 1; c_name k; c_name k; name; typ; m_name m; m_desc m; off] (field_refs p).
Proof.
  intros Hd Hk Hm Hi Hf. apply in_field_refs. exists d, k, m, off, op, (c_name k), name, typ. repeat split; auto.
  apply field_defined_spec. eauto.
Qed.
Lemma in_field_objects p r :
  In r (field_objects p) <->
  (exists d k name typ, In d p /\ In k d /\ In (name, typ) (c_fields k) /\ r = [c_name k; c_name k; name; typ]) \/
  (exists rw holder cls name typ mn md off, In [rw; holder; cls; name; typ; mn; md; off] (field_refs p) /\ r = [holder; cls; name; typ]).
Proof.
  unfold field_objects. rewrite in_app_iff, !in_flat_map. split; intros [H|H]; [left|right|left|right].
  - destruct H as (k & Hk & H). apply in_all_classes in Hk as (d & Hd & Hk). apply in_map_iff in H as ([n t] & <- & Hf). exists d, k, n, t. auto.
  - destruct H as (r0 & Hr & H). do 9 (destruct r0 as [|? r0]; try contradiction). destruct H as [<-|[]]. eauto 12.
  - destruct H as (d & k & name & typ & Hd & Hk & Hf & ->). exists k. split; [apply in_all_classes; eauto|].
    apply in_map_iff. exists (name, typ). auto.
  - destruct H as (rw & holder & cls & name & typ & mn & md & off & H & ->). exists [rw; holder; cls; name; typ; mn; md; off].
    split; [exact H | left; reflexivity].
Qed.
(* if every access to a defined field comes from the defining class, every FieldAnalysis sits on the field's own class *)
Lemma one_object_per_field_partial p :
  (forall d k m off op cls name typ, In d p -> In k d -> In m (c_methods k) -> In (off, XField op cls name typ) (m_code m) ->
     field_defined d cls name typ = true -> cls = c_name k) ->
  forall holder cls name typ, In [holder; cls; name; typ] (field_objects p) -> holder = cls.
Proof.
  intros H holder cls name typ Hin.
  apply in_field_objects in Hin as [(d & k & n & t & _ & _ & _ & [= -> -> _ _])|(rw & h & c & n & t & mn & md & off & Hr & [= -> -> -> ->])].
  - reflexivity.
  - apply in_field_refs in Hr as (d & k & m & off' & op & cls' & name' & typ' & Hd & Hk & Hm & Hi & Hdef & [= _ -> -> _ _ _ _ _]).
    symmetry. eapply H; eauto.
Qed.

(* the full statement of C14, and its refutation in the model *)
Definition field_xrefs_on_owner (p : program) : Prop :=
  forall d k m off op cls name typ,
    In d p -> In k d -> In m (c_methods k) -> In (off, XField op cls name typ) (m_code m) ->
    field_defined (concat p) cls name typ = true ->
    In [if is_read op then 0 else 1; cls; cls; name; typ; m_name m; m_desc m; off] (field_refs p).
Definition one_object_per_field (p : program) : Prop :=
  forall holder cls name typ, In [holder; cls; name; typ] (field_objects p) -> holder = cls.

Definition w_m : xmethod := {| m_name := 7; m_desc := 8; m_code := [(0, XField 82 1 5 6)] |}.
Definition w_A : xclass := {| c_name := 1; c_methods := []; c_fields := [(5, 6)] |}.
Definition w_B : xclass := {| c_name := 2; c_methods := [w_m]; c_fields := [] |}.
Definition w_same_dex : program := [[w_A; w_B]].
Definition w_two_dex : program := [[w_A]; [w_B]].

Lemma field_xrefs_on_owner_refuted : ~ field_xrefs_on_owner w_same_dex.
Proof.
  intros H. specialize (H [w_A; w_B] w_B w_m 0 82 1 5 6).
  apply (existsb_list_eqb_nIn [0; 1; 1; 5; 6; 7; 8; 0] (field_refs w_same_dex)); [vm_compute; reflexivity|].
  apply H; cbn; auto.
Qed.
Lemma one_object_per_field_refuted : ~ one_object_per_field w_same_dex.
Proof.
  intros H. specialize (H 2 1 5 6). assert (X : 2 = 1); [|discriminate]. apply H. vm_compute. auto.
Qed.
Lemma cross_dex_access_dropped : field_refs w_two_dex = [] /\ field_defined (concat w_two_dex) 1 5 6 = true.
Proof. split; vm_compute; reflexivity. Qed.

(* C16: order and split *)
Lemma call_rows_ext im im' s : (forall key, im key = im' key) -> call_rows im s = call_rows im' s.
Proof. intros H. destruct s as (d & k & m & off & i). destruct i; cbn [call_rows]; try reflexivity. now rewrite H. Qed.
Lemma perm_flat_map_ext {A B} (f g : A -> list B) l l' :
  (forall x, f x = g x) -> Permutation l l' -> Permutation (flat_map f l) (flat_map g l').
Proof. intros E H. rewrite (flat_map_ext _ _ E). now apply Permutation_flat_map. Qed.

Lemma calls_perm p p' : Permutation p p' -> Permutation (calls p) (calls p').
Proof.
  intros H. apply perm_flat_map_ext; [|apply sites_perm, H]. intros s. apply call_rows_ext. intros key. now apply internal_method_perm.
Qed.
Lemma calls_merged p : calls [concat p] = calls p.
Proof.
  unfold calls. rewrite site_rel_merged by (intros d k m [off i] _ _ _ _; reflexivity).
  apply flat_map_ext. intros s. apply call_rows_ext, internal_method_merged.
Qed.
Lemma string_refs_perm p p' : Permutation p p' -> Permutation (string_refs p) (string_refs p').
Proof. apply site_rel_perm. Qed.
Lemma string_refs_merged p : string_refs [concat p] = string_refs p.
Proof. apply site_rel_merged. intros d k m [off i] _ _ _ _. reflexivity. Qed.
Lemma class_refs_perm p p' : Permutation p p' -> Permutation (class_refs p) (class_refs p').
Proof. apply site_rel_perm. Qed.
Lemma class_refs_merged p : class_refs [concat p] = class_refs p.
Proof. apply site_rel_merged. intros d k m [off i] _ _ _ _. reflexivity. Qed.
Lemma field_refs_perm p p' : Permutation p p' -> Permutation (field_refs p) (field_refs p').
Proof. apply site_rel_perm. Qed.

(* no access crosses a DEX boundary: the accessed field is defined in the DEX of the instruction or in none *)
Definition fields_local (p : program) : Prop :=
  forall d k m off op cls name typ, In d p -> In k d -> In m (c_methods k) -> In (off, XField op cls name typ) (m_code m) ->
    field_defined (concat p) cls name typ = field_defined d cls name typ.
Lemma field_refs_merged_local p : fields_local p -> field_refs [concat p] = field_refs p.
Proof.
  intros Hloc. apply site_rel_merged. intros d k m [off i] Hd Hk Hm Hi. destruct i as [| | | | op cls name typ |]; try reflexivity.
  cbn [field_rows]. now rewrite (Hloc d k m off op cls name typ Hd Hk Hm Hi).
Qed.
Lemma field_refs_merged_refuted : field_refs [concat w_two_dex] <> field_refs w_two_dex.
Proof. vm_compute. discriminate. Qed.

Lemma external_classes_perm p p' : Permutation p p' -> Permutation (external_classes p) (external_classes p').
Proof.
  intros H. apply Permutation_app.
  - apply perm_flat_map_ext; [|apply class_refs_perm, H].
    intros r. repeat (destruct r as [|? r]; try reflexivity). now rewrite (internal_class_perm p p' _ H).
  - apply perm_flat_map_ext; [|apply calls_perm, H].
    intros r. repeat (destruct r as [|? r]; try reflexivity). now rewrite (internal_class_perm p p' _ H).
Qed.
Lemma external_classes_merged p : external_classes [concat p] = external_classes p.
Proof.
  unfold external_classes. rewrite class_refs_merged, calls_merged. f_equal; apply flat_map_ext; intros r;
    repeat (destruct r as [|? r]; try reflexivity); now rewrite internal_class_merged.
Qed.
Lemma all_methods_perm p p' : Permutation p p' -> Permutation (all_methods p) (all_methods p').
Proof.
  intros H. apply Permutation_app.
  - apply Permutation_map, internal_methods_perm, H.
  - apply Permutation_flat_map, calls_perm, H.
Qed.
Lemma all_methods_merged p : all_methods [concat p] = all_methods p.
Proof. unfold all_methods, internal_methods. now rewrite calls_merged, all_classes_merged. Qed.
Lemma call_edges_perm p p' : Permutation p p' -> Permutation (call_edges p) (call_edges p').
Proof. intros H. apply Permutation_flat_map, calls_perm, H. Qed.
Lemma call_edges_merged p : call_edges [concat p] = call_edges p.
Proof. unfold call_edges. now rewrite calls_merged. Qed.
Lemma field_objects_perm p p' : Permutation p p' -> Permutation (field_objects p) (field_objects p').
Proof.
  intros H. apply Permutation_app.
  - apply Permutation_flat_map, concat_perm, H.
  - apply Permutation_flat_map, field_refs_perm, H.
Qed.
Lemma field_objects_merged_local p : fields_local p -> field_objects [concat p] = field_objects p.
Proof. intros H. unfold field_objects. now rewrite field_refs_merged_local, all_classes_merged. Qed.
