(* C33 - the search for the APK Signing Block: end of central directory record, central directory offset, magic, the two size
   fields.  In a file where the block stands directly before the central directory and the last end record holds that offset, the
   pairs of the block are found; a file laid out as  prefix ++ block ++ central directory ++ end record  is such a file. *)
From Coq Require Import ZArith List Bool Lia ZifyBool.
Require Import V.Lib.Val V.Lib.Result V.Lib.Struct V.Apk.SigBlockModel V.Apk.SigBlockProofs.
Require V.Lib.ListFacts.
Import ListNotations.
Open Scope Z_scope.

Lemma bytes_eqb_refl a : bytes_eqb a a = true.
Proof. now apply ListFacts.list_eqb_Z_eq. Qed.
Lemma scan_finds file p : forall k, (0 <= p) -> (Z.to_nat p < k)%nat -> bytes_eqb (slice file p 4) PK_EOCD = true ->
  (forall q, p < q < Z.of_nat k -> bytes_eqb (slice file q 4) PK_EOCD = false) -> scan_eocd k file = Some p.
Proof.
  induction k as [|k IH]; intros Hp Hk Hm Hno; [lia|]. cbn [scan_eocd]. destruct (Z.eq_dec (Z.of_nat k) p) as [E|E].
  - rewrite E, Hm. reflexivity.
  - rewrite Hno by lia. apply IH; [lia | lia | exact Hm | intros q Hq; apply Hno; lia].
Qed.

Lemma takez8_u64 x r : takez 8 (u64 x ++ r) = u64 x.
Proof. change 8 with (len (u64 x)). apply takez_app. Qed.
Lemma dropz8_u64 x r : dropz 8 (u64 x ++ r) = r.
Proof. change 8 with (len (u64 x)). apply dropz_app. Qed.

(* the APK Signing Block: its size (without the first size field), the pairs, the size again, the magic; the end of central
   directory record: signature, eight bytes that are not looked at (disk numbers and entry counts), size and offset of the
   central directory, the comment length and the comment (at least the two bytes of the length) *)
Definition sig_block (kvs : list kv) : list Z :=
  let P := flat_map kv_bytes kvs in u64 (len P + 24) ++ P ++ u64 (len P + 24) ++ MAGIC.
Definition eocd (e8 : list Z) (cdsize off : Z) (comment_part : list Z) : list Z := PK_EOCD ++ e8 ++ u32 cdsize ++ u32 off ++ comment_part.
Lemma locate_at file q kvs X p e0 e1 e2 e3 e4 e5 e6 e7 cdsize cp :
  let off := q + len (sig_block kvs) in
  tail_at file q (sig_block kvs ++ PK_CD ++ X) -> tail_at file p (eocd [e0; e1; e2; e3; e4; e5; e6; e7] cdsize off cp) ->
  (forall r, p < r <= len file - 22 -> bytes_eqb (slice file r 4) PK_EOCD = false) ->
  Forall wf_kv kvs -> len (flat_map kv_bytes kvs) + 24 < 18446744073709551616 -> off < 4294967296 -> 2 <= len cp ->
  locate file = Ok (Pairs (tag [] kvs)).
Proof.
  intros off TB TE Hno Hkv Hsz Hoff Hc. unfold sig_block, eocd in TB, TE. set (P := flat_map kv_bytes kvs) in *. set (s := len P + 24) in *.
  rewrite <- !app_assoc in TB. destruct (tail_at_len TB) as [Q0 _]. destruct (tail_at_len TE) as [P0 Lf].
  rewrite !len_app, !len_u32 in Lf. change (len PK_EOCD) with 4 in Lf. change (len [e0; e1; e2; e3; e4; e5; e6; e7]) with 8 in Lf.
  assert (Eoff : off = q + s + 8) by (unfold off, sig_block; fold P s; rewrite !len_app, !len_u64; change (len MAGIC) with 16; lia).
  pose proof (len_nonneg P).
  unfold locate. replace (len file <? 21) with false by lia.
  rewrite (scan_finds file p); [|lia | lia | rewrite (slice_tail (n := 4) TE eq_refl eq_refl); apply bytes_eqb_refl | intros r Hr; apply Hno; lia].
  apply tail_at_app in TE. rewrite 2 app_assoc in TE. rewrite (slice_tail (q := p + 4) (n := 16) TE eq_refl eq_refl).
  unfold u32. cbn [lbytes app]. change (le [_; _; _; _]) with (le (u32 off)). rewrite le_u32 by (unfold fits32; lia). replace (off =? 0) with false by lia.
  pose proof (tail_at_app TB) as TP. rewrite len_u64 in TP. pose proof (tail_at_app TP) as TS.
  rewrite app_assoc in TS. rewrite (slice_tail (q := off - 24) (n := 24) TS) by (reflexivity || lia). apply tail_at_app in TS.
  rewrite (slice_tail (q := off) (n := 4) TS) by (try reflexivity; change (len (u64 s ++ MAGIC)) with 24; lia).
  rewrite takez8_u64, dropz8_u64, !bytes_eqb_refl, le_u64 by lia. cbn [negb]. replace (off - 24 <? 0) with false by lia.
  replace (off - (s + 8)) with q by lia. replace (q <? 0) with false by lia.
  rewrite (dropz_tail TB eq_refl), read_u64_enc by lia. cbn [bind]. rewrite Z.eqb_refl. cbn [negb].
  rewrite (dropz_tail TP eq_refl). replace (off - 24 - (q + 8)) with (len P) by lia.
  unfold P. rewrite parse_pairs_enc; [reflexivity | exact Hkv |].
  destruct (tail_at_len TP) as [_ L]. rewrite len_app in L. pose proof (len_nonneg (u64 s ++ MAGIC ++ PK_CD ++ X)).
  pose proof (flat_map_length_ge kv_bytes kvs ltac:(intros k; unfold kv_bytes, u64; cbn [lbytes app length]; lia)) as Hk. fold P in Hk. unfold len in *. lia.
Qed.
Theorem locate_finds_the_block pre kvs cdrest e0 e1 e2 e3 e4 e5 e6 e7 cdsize comment_part :
  let B := sig_block kvs in let off := len pre + len B in
  let file := pre ++ B ++ (PK_CD ++ cdrest) ++ eocd [e0; e1; e2; e3; e4; e5; e6; e7] cdsize off comment_part in
  Forall wf_kv kvs -> len (flat_map kv_bytes kvs) + 24 < 18446744073709551616 -> off < 4294967296 -> 0 <= cdsize < 4294967296 -> 2 <= len comment_part ->
  (forall q, len pre + len B + len (PK_CD ++ cdrest) < q <= len file - 22 -> bytes_eqb (slice file q 4) PK_EOCD = false) ->
  locate file = Ok (Pairs (tag [] kvs)).
Proof.
  intros B off file Hkv Hsz Hoff _ Hc Hno.
  eapply locate_at with (q := len pre) (p := len pre + len B + len (PK_CD ++ cdrest));
    [unfold file; rewrite <- (app_assoc PK_CD); apply tail_at_here | do 2 apply tail_at_app; apply tail_at_here | assumption ..].
Qed.
