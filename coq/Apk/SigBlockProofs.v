(* C33 - proofs about coq/Apk/SigBlockModel.v: what is read back from an encoded signing block.  The lemmas on lengths
   and on positions in a file (tail_at) also serve the search for the block in SigBlockLocate.v. *)
From Coq Require Import ZArith List Bool Lia ZifyBool.
Require Import V.Lib.Val V.Lib.Result V.Lib.Struct V.Apk.SigBlockModel.
Require V.Lib.ListFacts.
Import ListNotations.
Open Scope Z_scope.

Lemma len_app a b : len (a ++ b) = len a + len b.
Proof. unfold len. rewrite app_length. lia. Qed.
Lemma len_nonneg l : 0 <= len l.  Proof. unfold len. lia. Qed.
Lemma takez_app a r : takez (len a) (a ++ r) = a.
Proof.
  unfold len. induction a as [|x a IH].
  - cbn [app length]. destruct r; reflexivity.
  - cbn [app length takez]. replace (Z.of_nat (S (length a)) <=? 0) with false by lia.
    replace (Z.of_nat (S (length a)) - 1) with (Z.of_nat (length a)) by lia. now rewrite IH.
Qed.
Lemma dropz_app a r : dropz (len a) (a ++ r) = r.
Proof.
  unfold len. induction a as [|x a IH].
  - cbn [app length]. destruct r; reflexivity.
  - cbn [app length dropz]. replace (Z.of_nat (S (length a)) <=? 0) with false by lia.
    replace (Z.of_nat (S (length a)) - 1) with (Z.of_nat (length a)) by lia. exact IH.
Qed.
Definition tail_at (file : list Z) (p : Z) (l : list Z) : Prop := exists pre, file = pre ++ l /\ len pre = p.
Lemma tail_at_here pre l : tail_at (pre ++ l) (len pre) l.
Proof. now exists pre. Qed.
Lemma tail_at_app {file p a l} : tail_at file p (a ++ l) -> tail_at file (p + len a) l.
Proof. intros (pre & -> & <-). exists (pre ++ a). now rewrite len_app, <- app_assoc. Qed.
Lemma tail_at_len {file p l} : tail_at file p l -> 0 <= p /\ len file = p + len l.
Proof. intros (pre & -> & <-). split; [apply len_nonneg | apply len_app]. Qed.
Lemma dropz_tail {file p q l} : tail_at file p l -> q = p -> dropz q file = l.
Proof. intros (pre & -> & <-) ->. apply dropz_app. Qed.
Lemma slice_tail {file p q a l n} : tail_at file p (a ++ l) -> q = p -> n = len a -> slice file q n = a.
Proof. intros T Hq ->. unfold slice. rewrite (dropz_tail T Hq). apply takez_app. Qed.

Definition u32 (n : Z) : list Z := lbytes 4 n.
Definition u64 (n : Z) : list Z := lbytes 8 n.
Definition fits32 (n : Z) : Prop := 0 <= n < 4294967296.
Lemma len_u32 n : len (u32 n) = 4. Proof. reflexivity. Qed.
Lemma len_u64 n : len (u64 n) = 8. Proof. reflexivity. Qed.
Lemma le_u32 n : fits32 n -> le (u32 n) = n.
Proof. exact (lu_lbytes 4 n). Qed.
Lemma le_u64 n : 0 <= n < 18446744073709551616 -> le (u64 n) = n.
Proof. exact (lu_lbytes 8 n). Qed.
Lemma read_u32_enc n r : fits32 n -> read_u32 (u32 n ++ r) = Ok (n, r).
Proof. intros H. unfold u32. cbn [lbytes app read_u32]. do 2 f_equal. exact (le_u32 n H). Qed.
Lemma read_u64_enc n r : 0 <= n < 18446744073709551616 -> read_u64 (u64 n ++ r) = Ok (n, r).
Proof. intros H. unfold u64. cbn [lbytes app read_u64]. do 2 f_equal. exact (le_u64 n H). Qed.
Definition lp (b : list Z) : list Z := u32 (len b) ++ b.
Lemma len_lp b : len (lp b) = 4 + len b.
Proof. unfold lp. now rewrite len_app, len_u32. Qed.
Lemma read_lp_enc b r : fits32 (len b) -> read_lp (lp b ++ r) = Ok (b, r).
Proof. intros H. unfold read_lp, lp. rewrite <- app_assoc, read_u32_enc by exact H. cbn [bind]. now rewrite takez_app, dropz_app. Qed.
Lemma flat_map_length_ge {A B} (f : A -> list B) l : (forall x, 1 <= length (f x))%nat -> (length l <= length (flat_map f l))%nat.
Proof. intros H. induction l as [|x l IH]; [reflexivity|]. cbn [flat_map length]. rewrite app_length. specialize (H x). lia. Qed.
Lemma u32_app_length n r : (1 <= length (u32 n ++ r))%nat.
Proof. unfold u32. cbn [lbytes app length]. lia. Qed.

(* an entry as it lies in the file: four bytes the parser does not interpret, the algorithm id, the length-prefixed value *)
Record sod_enc := { se_skip : Z; se_alg : Z; se_data : list Z }.
Definition wf_sod (e : sod_enc) : Prop := fits32 (se_skip e) /\ fits32 (se_alg e) /\ fits32 (len (se_data e)).
Definition sod_bytes (e : sod_enc) : list Z := u32 (se_skip e) ++ u32 (se_alg e) ++ lp (se_data e).
Definition sod_val (e : sod_enc) : Z * list Z := (se_alg e, se_data e).
Lemma parse_sod_enc : forall es fuel, Forall wf_sod es -> (length es <= fuel)%nat ->
  parse_sod fuel (flat_map sod_bytes es) = Ok (map sod_val es).
Proof.
  induction es as [|e es IH]; intros fuel Hwf Hf; [destruct fuel; reflexivity|].
  apply Forall_cons_iff in Hwf as [(_ & W2 & W3) Hwf]. destruct fuel as [|f]; cbn [length] in Hf; [lia|].
  (* the first field is four bytes that are read and not looked at *)
  cbn [flat_map]. unfold sod_bytes at 1, u32 at 1. cbn [lbytes app parse_sod read_u32 bind]. rewrite <- !app_assoc.
  rewrite read_u32_enc by exact W2. cbn [bind]. rewrite read_lp_enc by exact W3. cbn [bind]. rewrite IH; [reflexivity | assumption | lia].
Qed.
Lemma sod_enc_ok es : Forall wf_sod es -> sod (flat_map sod_bytes es) = Ok (map sod_val es).
Proof. intros H. unfold sod. apply parse_sod_enc; [exact H | apply flat_map_length_ge; intros e; apply u32_app_length]. Qed.

Definition certs_bytes (cs : list (list Z)) : list Z := flat_map lp cs.
Lemma parse_certs_enc : forall cs fuel rest, Forall (fun c => fits32 (len c)) cs -> (length cs <= fuel)%nat ->
  parse_certs fuel (len (certs_bytes cs)) (certs_bytes cs ++ rest) = Ok (cs, rest).
Proof.
  induction cs as [|c cs IH]; intros fuel rest Hwf Hf; [destruct fuel; reflexivity|].
  apply Forall_cons_iff in Hwf as [W Hwf]. destruct fuel as [|f]; cbn [length] in Hf; [lia|].
  cbn [certs_bytes flat_map parse_certs]. fold (certs_bytes cs). rewrite len_app, len_lp.
  pose proof (len_nonneg c). pose proof (len_nonneg (certs_bytes cs)). replace (_ <=? 0) with false by lia.
  unfold lp. rewrite <- !app_assoc, read_u32_enc by exact W. cbn [bind]. rewrite takez_app, dropz_app.
  replace (_ - 4 - len c) with (len (certs_bytes cs)) by lia. now rewrite IH by (assumption || lia).
Qed.

Record signer_enc := { ge_skip : Z;                                    (* the signer's size field: read, not interpreted *)
                       ge_digests : list sod_enc; ge_certs : list (list Z); ge_sd_sdk : Z * Z; ge_attrs : list Z;
                       ge_sdk : Z * Z; ge_sigs : list sod_enc; ge_pk : list Z }.
Definition sdk_bytes (v3 : bool) (p : Z * Z) : list Z := if v3 then u32 (fst p) ++ u32 (snd p) else [].
Definition sd_bytes (v3 : bool) (g : signer_enc) : list Z :=
  lp (flat_map sod_bytes (ge_digests g)) ++ lp (certs_bytes (ge_certs g)) ++ sdk_bytes v3 (ge_sd_sdk g) ++ lp (ge_attrs g).
Definition signer_bytes (v3 : bool) (g : signer_enc) : list Z :=
  u32 (ge_skip g) ++ lp (sd_bytes v3 g) ++ sdk_bytes v3 (ge_sdk g) ++ lp (flat_map sod_bytes (ge_sigs g)) ++ lp (ge_pk g).
Definition wf_signer (v3 : bool) (g : signer_enc) : Prop :=
  fits32 (ge_skip g) /\ Forall wf_sod (ge_digests g) /\ fits32 (len (flat_map sod_bytes (ge_digests g))) /\
  Forall (fun c => fits32 (len c)) (ge_certs g) /\ fits32 (len (certs_bytes (ge_certs g))) /\
  fits32 (fst (ge_sd_sdk g)) /\ fits32 (snd (ge_sd_sdk g)) /\ fits32 (len (ge_attrs g)) /\ fits32 (len (sd_bytes v3 g)) /\
  fits32 (fst (ge_sdk g)) /\ fits32 (snd (ge_sdk g)) /\
  Forall wf_sod (ge_sigs g) /\ fits32 (len (flat_map sod_bytes (ge_sigs g))) /\ fits32 (len (ge_pk g)).
Definition sdk_val (v3 : bool) (p : Z * Z) : option (Z * Z) := if v3 then Some p else None.
Definition signer_val (v3 : bool) (g : signer_enc) : signer :=
  {| s_data := {| sd_digests := map sod_val (ge_digests g); sd_certs := ge_certs g; sd_sdk := sdk_val v3 (ge_sd_sdk g); sd_attrs := ge_attrs g |};
     s_sdk := sdk_val v3 (ge_sdk g); s_sigs := map sod_val (ge_sigs g); s_pk := ge_pk g |}.

Lemma read_sdk_enc v3 p r : fits32 (fst p) -> fits32 (snd p) -> read_sdk v3 (sdk_bytes v3 p ++ r) = Ok (sdk_val v3 p, r).
Proof.
  intros H1 H2. unfold read_sdk, sdk_bytes, sdk_val. destruct v3; [|reflexivity]. rewrite <- app_assoc.
  rewrite read_u32_enc by exact H1. cbn [bind]. rewrite read_u32_enc by exact H2. cbn [bind]. now destruct p.
Qed.
Lemma parse_signed_data_enc v3 g : wf_signer v3 g -> parse_signed_data v3 (sd_bytes v3 g) = Ok (s_data (signer_val v3 g)).
Proof.
  intros (_ & W1 & W2 & W3 & W4 & W5 & W6 & W7 & _). unfold parse_signed_data, sd_bytes.
  rewrite read_lp_enc by exact W2. cbn [bind]. rewrite sod_enc_ok by exact W1. cbn [bind].
  unfold lp at 1. rewrite <- app_assoc. rewrite read_u32_enc by exact W4. cbn [bind].
  rewrite parse_certs_enc; [|exact W3|].
  - cbn [bind]. rewrite read_sdk_enc by assumption. cbn [bind].
    rewrite <- (app_nil_r (lp (ge_attrs g))). rewrite read_lp_enc by exact W7. reflexivity.
  - rewrite app_length. pose proof (flat_map_length_ge lp (ge_certs g) (fun c => u32_app_length _ c)). unfold certs_bytes. lia.
Qed.
Lemma parse_signer_enc v3 g r : wf_signer v3 g -> parse_signer v3 (signer_bytes v3 g ++ r) = Ok (signer_val v3 g, r).
Proof.
  intros W. pose proof (parse_signed_data_enc v3 g W) as SD.
  destruct W as (W0 & _ & _ & _ & _ & _ & _ & _ & W8 & W9 & W10 & W11 & W12 & W13).
  unfold parse_signer, signer_bytes. rewrite <- !app_assoc. rewrite read_u32_enc by exact W0. cbn [bind].
  rewrite read_lp_enc by exact W8. cbn [bind]. rewrite SD. cbn [bind].
  rewrite read_sdk_enc by assumption. cbn [bind]. rewrite read_lp_enc by exact W12. cbn [bind].
  rewrite sod_enc_ok by exact W11. cbn [bind]. rewrite read_lp_enc by exact W13. reflexivity.
Qed.
Lemma parse_signers_enc v3 : forall gs fuel, Forall (wf_signer v3) gs -> (length gs <= fuel)%nat ->
  parse_signers fuel v3 (flat_map (signer_bytes v3) gs) = Ok (map (signer_val v3) gs).
Proof.
  induction gs as [|g gs IH]; intros fuel Hwf Hf; [destruct fuel; reflexivity|].
  apply Forall_cons_iff in Hwf as [W Hwf]. destruct fuel as [|f]; cbn [length] in Hf; [lia|].
  cbn [flat_map]. destruct (signer_bytes v3 g ++ _) as [|x l] eqn:El; [discriminate El|]. cbn [parse_signers].
  rewrite <- El, parse_signer_enc by exact W. cbn [bind]. now rewrite IH by (assumption || lia).
Qed.
(* the value of a v2 / v3 / v3.1 pair *)
Definition block_bytes (v3 : bool) (gs : list signer_enc) : list Z := lp (flat_map (signer_bytes v3) gs).
Theorem parse_block_enc v3 gs : Forall (wf_signer v3) gs -> fits32 (len (flat_map (signer_bytes v3) gs)) ->
  parse_block v3 (block_bytes v3 gs) = Ok (map (signer_val v3) gs).
Proof.
  intros W L. unfold parse_block, block_bytes, lp. rewrite read_u32_enc by exact L. cbn [bind].
  rewrite len_app, len_u32. replace (_ =? _) with true by lia.
  apply parse_signers_enc; [exact W | apply flat_map_length_ge; intros g; apply u32_app_length].
Qed.

Definition kv := (Z * list Z)%type.
Definition kv_bytes (p : kv) : list Z := u64 (len (snd p) + 4) ++ u32 (fst p) ++ snd p.
(* the length of a value is a count read() accepts (at most 2^63 - 1), so the size field is below 2^63 + 4 *)
Definition wf_kv (p : kv) : Prop := fits32 (fst p) /\ len (snd p) + 4 < 9223372036854775812.
(* the records the loop builds: a pair is flagged when its id occurred before *)
Fixpoint tag (seen : list pair) (kvs : list kv) : list pair :=
  match kvs with
  | [] => seen
  | p :: r => tag (seen ++ [{| p_id := fst p; p_dup := existsb (fun q => p_id q =? fst p) seen; p_data := snd p |}]) r
  end.
Lemma parse_pairs_enc : forall kvs fuel acc rest, Forall wf_kv kvs -> (length kvs <= fuel)%nat ->
  parse_pairs fuel (len (flat_map kv_bytes kvs)) (flat_map kv_bytes kvs ++ rest) acc = Ok (tag acc kvs).
Proof.
  induction kvs as [|p kvs IH]; intros fuel acc rest Hwf Hf; [destruct fuel; reflexivity|].
  apply Forall_cons_iff in Hwf as [[W1 W2] Hwf]. destruct fuel as [|f]; cbn [length] in Hf; [lia|].
  cbn [flat_map parse_pairs tag]. pose proof (len_nonneg (snd p)). pose proof (len_nonneg (flat_map kv_bytes kvs)).
  assert (L : len (kv_bytes p) = 12 + len (snd p)) by (unfold kv_bytes; rewrite !len_app, len_u64, len_u32; lia).
  rewrite len_app, L. replace (_ <=? 0) with false by lia.
  unfold kv_bytes at 1. rewrite <- !app_assoc, read_u64_enc by lia. cbn [bind]. rewrite read_u32_enc by exact W1. cbn [bind].
  replace (len (snd p) + 4 - 4) with (len (snd p)) by lia. replace (_ <? len (snd p)) with false by lia. replace (len (snd p) <? 0) with false by lia.
  rewrite takez_app, dropz_app. replace (_ - 12 - len (snd p)) with (len (flat_map kv_bytes kvs)) by lia. apply IH; [assumption | lia].
Qed.

Lemma tag_contents : forall kvs seen, map (fun q => (p_id q, p_data q)) (tag seen kvs) = map (fun q => (p_id q, p_data q)) seen ++ kvs.
Proof.
  induction kvs as [|[k v] kvs IH]; intros seen; cbn [tag]; [now rewrite app_nil_r|]. rewrite IH, map_app. cbn [map p_id p_data fst snd].
  now rewrite <- app_assoc.
Qed.
Lemma has_id_spec ps id : has_id ps id = existsb (fun p : kv => fst p =? id) (map (fun q => (p_id q, p_data q)) ps).
Proof. unfold has_id. induction ps as [|q ps IH]; [reflexivity|]. cbn [existsb map fst]. now rewrite IH. Qed.
Lemma first_with_spec ps id :
  first_with ps id = option_map snd (find (fun p : kv => fst p =? id) (map (fun q => (p_id q, p_data q)) ps)).
Proof.
  unfold first_with. induction ps as [|q ps IH]; [reflexivity|]. cbn [find map fst]. destruct (p_id q =? id); [reflexivity | exact IH].
Qed.
(* presence flag = some pair has the id; the block that is parsed = the value of the first such pair *)
Theorem flags_and_selection kvs id :
  has_id (tag [] kvs) id = existsb (fun p : kv => fst p =? id) kvs /\
  first_with (tag [] kvs) id = option_map snd (find (fun p : kv => fst p =? id) kvs).
Proof. rewrite has_id_spec, first_with_spec, tag_contents. cbn [map app]. auto. Qed.

Fixpoint dup_from (seen : list Z) (ks : list Z) : bool :=
  match ks with [] => false | k :: r => existsb (Z.eqb k) seen || dup_from (seen ++ [k]) r end.
Lemma tag_dups : forall kvs seen,
  existsb p_dup (tag seen kvs) = existsb p_dup seen || dup_from (map p_id seen) (map fst kvs).
Proof.
  induction kvs as [|[k v] kvs IH]; intros seen; cbn [tag map dup_from fst]; [now rewrite orb_false_r|].
  rewrite IH, existsb_app, map_app. cbn [existsb map p_dup p_id]. rewrite orb_false_r, orb_assoc. f_equal. f_equal.
  induction seen as [|q seen IHs]; [reflexivity|]. cbn [existsb map]. rewrite IHs. f_equal. apply Z.eqb_sym.
Qed.
Lemma dup_from_spec : forall ks seen, dup_from seen ks = false <-> NoDup ks /\ forall k, In k ks -> ~ In k seen.
Proof.
  induction ks as [|k ks IH]; intros seen; cbn [dup_from]; [split; [split; [constructor | intros k []] | reflexivity]|].
  rewrite orb_false_iff, ListFacts.existsb_eqb_nIn, IH, NoDup_cons_iff. setoid_rewrite in_app_iff. cbn [In].
  intuition (subst; eauto).
Qed.
Theorem duplicates_flagged kvs : existsb p_dup (tag [] kvs) = false <-> NoDup (map fst kvs).
Proof. rewrite tag_dups. cbn [existsb map orb]. rewrite dup_from_spec. split; [tauto | intros H; split; [exact H | auto]]. Qed.
