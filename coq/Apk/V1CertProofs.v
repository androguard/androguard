(* C32 - proofs about coq/Apk/V1CertModel.v: a certificate is reported only for a SignerInfo that was tried, refers to it and
   whose signature it verifies *)
From Coq Require Import ZArith List Bool Lia ZifyBool.
Require Import V.Lib.Val V.Lib.Result V.Apk.V1CertModel.
Import ListNotations.
Open Scope Z_scope.

Definition sdk_checks_ct (max_sdk : option Z) : bool := match max_sdk with Some v => negb (v <? 24) | None => true end.
Definition to_try (min_sdk : option Z) (infos : list sinfo) : list sinfo :=
  match infos with [] => [] | first :: _ => match min_sdk with Some v => if v <? 24 then [first] else infos | None => [first] end end.

(* what it means that SignerInfo s vouches for the certificate with DER identity d *)
Definition accepts (certs : list cert) (encap_ct : Z) (max_sdk : option Z) (s : sinfo) (d : Z) : Prop :=
  exists j c, nth_error certs j = Some c /\ refers_to s c = true /\ (forall i c', (i < j)%nat -> nth_error certs i = Some c' -> refers_to s c' = false) /\
    c_der c = d /\ s_alg_ok s = true /\
    ((s_attrs s = [] /\ nth j (s_vsf s) VErr_ = VOk) \/
     (s_attrs s <> [] /\ has_dup (s_attrs s) = false /\ assoc OID_MD (s_attrs s) = Some (s_sf_digest s) /\ nth j (s_vattrs s) VErr_ = VOk /\
      (sdk_checks_ct max_sdk = true -> assoc OID_CT (s_attrs s) = Some encap_ct))).

Lemma find_certificate_iff : forall certs s k j c, find_certificate certs s k = Some (j, c) <->
  (k <= j)%nat /\ nth_error certs (j - k) = Some c /\ refers_to s c = true /\
  (forall i c', (i < j - k)%nat -> nth_error certs i = Some c' -> refers_to s c' = false).
Proof.
  induction certs as [|c0 certs IH]; intros s k j c; cbn [find_certificate].
  { split; [discriminate | intros (_ & H & _); now destruct (j - k)%nat]. }
  destruct (refers_to s c0) eqn:E.
  - split.
    + intros [= <- <-]. rewrite Nat.sub_diag. repeat split; auto. intros i c' Hi; lia.
    + intros (Hk & Hn & _ & Hf). destruct (j - k)%nat as [|m] eqn:Ej; [injection Hn as <-; do 2 f_equal; lia|].
      rewrite (Hf 0%nat c0) in E by (cbn; auto; lia). discriminate.
  - rewrite IH. split.
    + intros (Hk & Hn & Hr & Hf). replace (j - k)%nat with (S (j - S k)) by lia. repeat split; auto; [lia|].
      intros [|i] c' Hi Hc; [now injection Hc as <- | apply (Hf i); [lia | exact Hc]].
    + intros (Hk & Hn & Hr & Hf). destruct (j - k)%nat as [|m] eqn:Ej; [injection Hn as <-; congruence|].
      replace (j - S k)%nat with m by lia. repeat split; auto; [lia|]. intros i c' Hi. apply (Hf (S i)). lia.
Qed.
Lemma find_certificate_none : forall certs s k, find_certificate certs s k = None <-> (forall c, In c certs -> refers_to s c = false).
Proof.
  induction certs as [|c0 certs IH]; intros s k; cbn [find_certificate]; [split; [intros _ c [] | auto]|].
  destruct (refers_to s c0) eqn:E.
  - split; [discriminate|]. intros H. specialize (H c0 (or_introl eq_refl)). congruence.
  - rewrite IH. split; [intros H c [<-|Hc]; auto | intros H c Hc; apply H; now right].
Qed.
Lemma of_vres_some v c d : of_vres v c = Ok (Some d) <-> v = VOk /\ c_der c = d.
Proof. destruct v; cbn; split; try discriminate; [now intros [= <-] | now intros [_ <-] | now intros [[=] _] | now intros [[=] _]]. Qed.

Lemma check_then {A} (x : result bool) (k : result (option A)) d :
  (do ok <- x; if negb ok then Ok None else k) = Ok (Some d) <-> x = Ok true /\ k = Ok (Some d).
Proof. destruct x as [[|]|e]; cbn; split; try discriminate; try tauto; now intros [[=] _]. Qed.
Lemma content_type_ok mx attrs ct :
  match mx with
  | Some v => if v <? 24 then Ok true else match assoc OID_CT attrs with None => Err ValueError | Some ct0 => Ok (ct0 =? ct) end
  | None => match assoc OID_CT attrs with None => Err ValueError | Some ct0 => Ok (ct0 =? ct) end
  end = Ok true <-> (sdk_checks_ct mx = true -> assoc OID_CT attrs = Some ct).
Proof.
  assert (M : match assoc OID_CT attrs with None => Err ValueError | Some ct0 => Ok (ct0 =? ct) end = Ok true <-> assoc OID_CT attrs = Some ct).
  { destruct (assoc OID_CT attrs) as [ct0|]; split; try discriminate; intros [= H]; do 2 f_equal; lia. }
  destruct mx as [v|]; cbn [sdk_checks_ct]; [destruct (v <? 24)|]; rewrite ?M; cbn [negb]; split; auto; discriminate.
Qed.
Lemma message_digest_ok {A} attrs sf (k : result (option A)) d :
  match assoc OID_MD attrs with None => Err ValueError | Some md => if md =? sf then k else Ok None end = Ok (Some d) <->
  assoc OID_MD attrs = Some sf /\ k = Ok (Some d).
Proof.
  destruct (assoc OID_MD attrs) as [md|]; [|split; [discriminate | now intros [[=] _]]].
  destruct (md =? sf) eqn:E; split; try discriminate; [intros H; split; [f_equal; lia | exact H] | tauto | intros [[= H] _]; lia].
Qed.

Theorem verify_signer_iff certs ct mx s d : verify_signer certs ct mx s = Ok (Some d) <-> accepts certs ct mx s d.
Proof.
  unfold verify_signer, accepts. split.
  - intros H. destruct (s_alg_ok s); cbn [negb] in H; [|discriminate].
    destruct (find_certificate certs s 0) as [[j c]|] eqn:Ef; [|discriminate].
    apply find_certificate_iff in Ef as (_ & Hn & Hr & Hfirst). rewrite Nat.sub_0_r in *.
    exists j, c. do 3 (split; [assumption|]).
    destruct (s_attrs s) as [|a0 ar]; [apply of_vres_some in H as [Hv Hd]; auto|].
    destruct (has_dup (a0 :: ar)); [discriminate|].
    rewrite check_then, content_type_ok, message_digest_ok, of_vres_some in H. destruct H as (Hct & Hmd & Hv & Hd).
    split; [exact Hd|]. split; [reflexivity|]. right. repeat split; auto. discriminate.
  - intros (j & c & Hn & Hr & Hfirst & Hd & -> & Hv). cbn [negb].
    replace (find_certificate certs s 0) with (Some (j, c)) by (symmetry; apply find_certificate_iff; rewrite Nat.sub_0_r; repeat split; auto; lia).
    destruct Hv as [[-> B] | (A & Hdup & Hmd & B & Hct)]; [now apply of_vres_some|].
    destruct (s_attrs s) as [|a0 ar]; [congruence|]. rewrite Hdup.
    rewrite check_then, content_type_ok, message_digest_ok, of_vres_some. auto.
Qed.

Lemma collect_sound certs ct mx : forall l ds, collect certs ct mx l = Some ds -> forall d, In d ds -> exists s, In s l /\ accepts certs ct mx s d.
Proof.
  induction l as [|s l IH]; intros ds H d Hd; cbn [collect] in H; [injection H as <-; destruct Hd|].
  destruct (verify_signer certs ct mx s) as [o|e] eqn:Ev; [|discriminate]. destruct (collect certs ct mx l) as [rest|]; [|discriminate].
  injection H as <-. assert (Hd' : o = Some d \/ In d rest) by (destruct o; [destruct Hd as [->|]|]; auto).
  destruct Hd' as [-> | Hd']; [exists s; split; [now left | now apply verify_signer_iff]|].
  destruct (IH rest eq_refl d Hd') as (s' & Hs & Ha). exists s'. split; [now right | exact Ha].
Qed.
Arguments collect_sound {certs ct mx l ds} _ {d}.
Lemma get_certificate_der_eq certs ct mn mx infos :
  get_certificate_der certs ct mn mx infos = match collect certs ct mx (to_try mn infos) with Some (d :: _) => Some d | _ => None end.
Proof. destruct infos; reflexivity. Qed.
(* C32: a reported certificate is vouched for by one of the SignerInfos that were tried *)
Theorem reported_certificate_verifies certs ct mn mx infos d :
  get_certificate_der certs ct mn mx infos = Some d -> exists s, In s (to_try mn infos) /\ accepts certs ct mx s d.
Proof.
  rewrite get_certificate_der_eq. destruct (collect _ _ _ _) as [[|d0 ds]|] eqn:Ec; try discriminate. intros [= ->].
  exact (collect_sound Ec (or_introl eq_refl)).
Qed.
Lemma to_try_incl mn infos s : In s (to_try mn infos) -> In s infos.
Proof. unfold to_try. destruct infos as [|f r]; [tauto|]. destruct mn as [v|]; [destruct (v <? 24)|]; intros H; auto; destruct H as [<-|[]]; now left. Qed.
Lemma nothing_reported certs ct mn mx infos :
  (forall s d, In s infos -> ~ accepts certs ct mx s d) -> get_certificate_der certs ct mn mx infos = None.
Proof.
  intros H. destruct (get_certificate_der certs ct mn mx infos) as [d|] eqn:E; [|reflexivity].
  apply reported_certificate_verifies in E as (s & Hs & A). apply to_try_incl in Hs. now destruct (H s d Hs).
Qed.

(* the contrapositive forms named in the property: an altered reference, signature, .SF or attribute set reports nothing *)
Theorem altered_reference_reports_nothing certs ct mn mx infos :
  (forall s c, In s infos -> In c certs -> refers_to s c = false) -> get_certificate_der certs ct mn mx infos = None.
Proof.
  intros H. apply nothing_reported. intros s d Hs (j & c & Hn & Hr & _). apply nth_error_In in Hn. rewrite (H s c Hs Hn) in Hr. discriminate.
Qed.
Theorem altered_signature_reports_nothing certs ct mn mx infos :
  (forall s j, In s infos -> (s_attrs s = [] -> nth j (s_vsf s) VErr_ <> VOk) /\ (s_attrs s <> [] -> nth j (s_vattrs s) VErr_ <> VOk)) ->
  get_certificate_der certs ct mn mx infos = None.
Proof.
  intros H. apply nothing_reported. intros s d Hs (j & c & _ & _ & _ & _ & _ & Hv). destruct (H s j Hs) as [H1 H2].
  destruct Hv as [[A B]|(A & _ & _ & B & _)]; tauto.
Qed.
Theorem altered_sf_reports_nothing certs ct mn mx infos :
  (forall s, In s infos -> s_attrs s <> [] /\ assoc OID_MD (s_attrs s) <> Some (s_sf_digest s)) -> get_certificate_der certs ct mn mx infos = None.
Proof.
  intros H. apply nothing_reported. intros s d Hs (j & c & _ & _ & _ & _ & _ & Hv). destruct (H s Hs) as [H1 H2].
  destruct Hv as [[A B]|(A & _ & B & _)]; tauto.
Qed.
(* completeness for the ordinary case: one SignerInfo, good signature *)
Theorem good_single_signer_is_reported certs ct mn mx s d : accepts certs ct mx s d -> has_dup (s_attrs s) = false ->
  (s_attrs s <> [] -> assoc OID_CT (s_attrs s) = Some ct) -> get_certificate_der certs ct mn mx [s] = Some d.
Proof.
  intros A _ _. apply verify_signer_iff in A. rewrite get_certificate_der_eq.
  replace (to_try mn [s]) with [s] by (unfold to_try; destruct mn as [v|]; [destruct (v <? 24)|]; reflexivity). cbn [collect]. now rewrite A.
Qed.
