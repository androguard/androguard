(* C31 - _format_value follows Android's rule for completing a class name and completes no name twice; the main activities,
   the permissions and the effective target SDK are characterised by what the manifest tree holds; at the end the queries
   are put behind the parser of C26, on the bytes of a manifest *)
From Coq Require Import ZArith List Bool Lia ZifyBool.
Require Import V.Lib.Val V.Lib.Result V.Lib.ListFacts V.Axml.PoolModel V.Axml.AxmlModel V.Apk.ManifestModel.
Import ListNotations.
Open Scope Z_scope.

Definition has_dot (s : str) : bool := existsb (Z.eqb S_dot) s.
Lemma index_of_dot_spec : forall s i, 0 <= i ->
  (index_of_dot s i = -1 /\ has_dot s = false) \/ (i <= index_of_dot s i /\ has_dot s = true).
Proof.
  unfold has_dot, S_dot. induction s as [|c s IH]; intros i Hi; cbn [index_of_dot existsb]; [left; auto|]. unfold S_dot.
  destruct (c =? 46) eqn:E.
  - right. split; [lia|]. replace (46 =? c) with true by lia. reflexivity.
  - replace (46 =? c) with false by lia. cbn [orb]. destruct (IH (i + 1)) as [[A B]|[A B]]; [lia | left; auto | right; split; [lia | exact B]].
Qed.
Lemma index_of_dot_zero c s : index_of_dot (c :: s) 0 = 0 <-> c = S_dot.
Proof.
  cbn [index_of_dot]. unfold S_dot. destruct (c =? 46) eqn:E; [split; [lia | intros; reflexivity]|]. split; [|lia].
  destruct (index_of_dot_spec s (0 + 1)) as [[A _]|[A _]]; lia.
Qed.
Lemma has_dot_app p a b : has_dot (p :: a ++ S_dot :: b) = true.
Proof. unfold has_dot. cbn [existsb]. rewrite existsb_app. cbn. now rewrite !orb_true_r. Qed.
(* Android's rule: a name that starts with a dot gets the package in front, a name without any dot gets package and a dot,
   every other name is left alone *)
Theorem format_value_rule p0 pr c v :
  format_value (Some (p0 :: pr)) (c :: v) =
  if c =? S_dot then (p0 :: pr) ++ c :: v else if has_dot (c :: v) then c :: v else (p0 :: pr) ++ [S_dot] ++ c :: v.
Proof.
  unfold format_value. destruct (c =? S_dot) eqn:E.
  - replace (index_of_dot (c :: v) 0 =? 0) with true; [reflexivity|]. symmetry. apply Z.eqb_eq, index_of_dot_zero. lia.
  - assert (N : index_of_dot (c :: v) 0 <> 0) by (rewrite index_of_dot_zero; lia).
    replace (index_of_dot (c :: v) 0 =? 0) with false by lia.
    destruct (index_of_dot_spec (c :: v) 0) as [[A B]|[A B]]; [lia | |]; rewrite B.
    + rewrite A. reflexivity.
    + replace (index_of_dot (c :: v) 0 =? -1) with false by lia. reflexivity.
Qed.
Theorem format_value_without_package v : format_value None v = v /\ format_value (Some []) v = v.
Proof. split; destruct v; reflexivity. Qed.
Theorem format_value_idempotent p0 pr v : p0 <> S_dot ->
  format_value (Some (p0 :: pr)) (format_value (Some (p0 :: pr)) v) = format_value (Some (p0 :: pr)) v.
Proof.
  intros Hp. destruct v as [|c v]; [reflexivity|]. rewrite format_value_rule. destruct (c =? S_dot) eqn:E.
  - replace c with S_dot by lia. cbn [app]. rewrite format_value_rule. replace (p0 =? S_dot) with false by lia.
    now rewrite has_dot_app.
  - destruct (has_dot (c :: v)) eqn:D; [now rewrite format_value_rule, E, D|].
    cbn [app]. rewrite format_value_rule. replace (p0 =? S_dot) with false by lia. now rewrite has_dot_app.
Qed.

Theorem is_main_spec item :
  is_main item = true <->
  exists f, In f (findall item [105;110;116;101;110;116;45;102;105;108;116;101;114]) /\
            has_child_named f [97;99;116;105;111;110] S_MAIN = true /\ has_child_named f [99;97;116;101;103;111;114;121] S_LAUNCHER = true.
Proof.
  unfold is_main. rewrite existsb_exists. split; intros (f & Hf & H); exists f; (split; [exact Hf|]); [now apply andb_true_iff in H | now apply andb_true_iff].
Qed.
Theorem main_activities_exact root n :
  In n (main_activities root) <->
  exists item, In item (findall root [97;99;116;105;118;105;116;121] ++ findall root [97;99;116;105;118;105;116;121;45;97;108;105;97;115]) /\
               get item (ns [101;110;97;98;108;101;100]) <> Some S_false /\ is_main item = true /\ get_or item [110;97;109;101] = Some n.
Proof.
  unfold main_activities. rewrite in_flat_map. split; intros (item & Hi & H); exists item; (split; [exact Hi|]).
  - destruct (get item _) as [v|]; [destruct (str_eqb v S_false) eqn:Ev; [contradiction|]|];
      (destruct (is_main item); [|contradiction]); (destruct (get_or item _) as [m|]; [|contradiction]);
      destruct H as [<-|[]]; (split; [|auto]); [|discriminate].
    intros [= ->]. unfold str_eqb in Ev. now rewrite (proj2 (list_eqb_Z_eq _ _) eq_refl) in Ev.
  - destruct H as (He & -> & ->). destruct (get item _) as [v|]; [|now left].
    destruct (str_eqb v S_false) eqn:Ev; [apply list_eqb_Z_eq in Ev; subst; congruence | now left].
Qed.

Lemma dedup_in l x : In x (dedup l) <-> In x l.
Proof.
  induction l as [|y l IH]; [tauto|]. cbn [dedup]. destruct (existsb (str_eqb y) l) eqn:E.
  - apply existsb_list_eqb_In in E. rewrite IH. split; [now right|]. intros [<-|H]; assumption.
  - cbn [In]. rewrite IH. tauto.
Qed.
Theorem dedup_nodup l : NoDup (dedup l).
Proof.
  induction l as [|y l IH]; [constructor|]. cbn [dedup]. destruct (existsb (str_eqb y) l) eqn:E; [exact IH|]. constructor; [|exact IH].
  rewrite dedup_in. exact (proj1 (existsb_list_eqb_nIn y l) E).
Qed.
Theorem permissions_exact root p :
  In p (dedup (m_permissions (analyse root))) <->
  exists e, In e (find_tags root [117;115;101;115;45;112;101;114;109;105;115;115;105;111;110]) /\ get_or e [110;97;109;101] = Some p.
Proof.
  rewrite dedup_in. cbn [analyse m_permissions]. unfold all_attr. rewrite in_flat_map. split; intros (e & He & H); exists e; (split; [exact He|]).
  - destruct (get_or e [110;97;109;101]) as [v|]; [destruct H as [<-|[]]; reflexivity | contradiction].
  - rewrite H. now left.
Qed.

Theorem effective_sdk_cases root :
  let m := analyse root in
  (forall c r k, m_target m = Some (c :: r) -> parse_int (c :: r) = Some k -> m_effective m = k) /\
  (forall v k, (m_target m = None \/ m_target m = Some []) -> m_min m = Some v -> parse_int v = Some k -> m_effective m = k) /\
  ((m_target m = None \/ m_target m = Some []) -> m_min m = None -> m_effective m = 1).
Proof.
  cbv zeta. cbn [analyse m_target m_min m_effective]. repeat split.
  - intros c r k -> E. now rewrite E.
  - intros v k [-> | ->] -> E; now rewrite E.
  - intros [-> | ->] ->; reflexivity.
Qed.

(* the queries on the tree that the bytes of a manifest decode to: composition with C26 *)
Require V.Axml.PoolProofs V.Axml.AxmlDocument V.Axml.AxmlAttrs.
Lemma queries_from_bytes (utf8_flag : bool) ss padding sysattr ids decls t :
  Forall (PoolProofs.fits utf8_flag) ss -> Z.of_nat (length ss) < NONE -> AxmlAttrs.wf_res ids -> Forall AxmlAttrs.wf_decl decls ->
  AxmlAttrs.wf_atree ss sysattr ids t -> AxmlAttrs.atail t = NONE ->
  28 + 4 * Z.of_nat (length ss) + PoolModel.len (concat (map (if utf8_flag then PoolProofs.entry8 else PoolProofs.entry16) ss)) < 4294967296 ->
  PoolModel.len (AxmlDocument.doc_bytes utf8_flag ss padding (AxmlDocument.IResMap ids :: AxmlAttrs.adoc_items decls t)) < 4294967296 ->
  option_map analyse (match parse_axml sysattr (AxmlDocument.doc_bytes utf8_flag ss padding (AxmlDocument.IResMap ids :: AxmlAttrs.adoc_items decls t)) with Ok r => r | Err _ => None end)
  = Some (analyse (AxmlAttrs.atree_of ss sysattr ids decls t)).
Proof.
  intros. now rewrite AxmlAttrs.manifest_document_round_trip.
Qed.
