(* C34 - the pattern of get_dex_names and that of is_multidex accept the same names, exactly 'classes', decimal digits,
   '.dex'; so is_multidex says that get_dex_names has two or more names, and in an archive that holds no name twice
   get_all_dex is the contents stored under those names *)
From Coq Require Import ZArith List Bool Lia ZifyBool.
Require Import V.Lib.Val V.Lib.Result V.Lib.ListFacts V.Apk.FilesModel.
Import ListNotations.
Open Scope Z_scope.

Definition digit (c : Z) : Prop := 48 <= c <= 57.
Definition is_dex_name (n : list Z) : Prop := exists ds, Forall digit ds /\ n = S_CLASSES ++ ds ++ S_DOTDEX.

Lemma starts_with_spec : forall p s, starts_with p s = true <-> exists r, s = p ++ r.
Proof. exact is_prefix_spec. Qed.

Lemma drop_digits_split : forall s, exists ds, Forall digit ds /\ s = ds ++ drop_digits s.
Proof.
  induction s as [|c t (ds & Hd & IH)]; simpl; [now exists []|].
  destruct (_ && _) eqn:E; [|now exists []]. exists (c :: ds). split; [constructor; [unfold digit; lia | exact Hd] | simpl; now f_equal].
Qed.
Lemma drop_digits_app : forall ds r, Forall digit ds -> drop_digits (ds ++ r) = drop_digits r.
Proof. induction 1 as [|c ds Hc Hds IH]; simpl; [reflexivity|]. unfold digit in Hc. now replace ((48 <=? c) && (c <=? 57)) with true by lia. Qed.

Theorem dex_match_spec : forall n, dex_match n = true <-> is_dex_name n.
Proof.
  intros n. unfold dex_match, is_dex_name, str_eqb. rewrite andb_true_iff, starts_with_spec, list_eqb_Z_eq. split.
  - intros [[r ->] H]. change (skipn 7 (S_CLASSES ++ r)) with r in H.
    destruct (drop_digits_split r) as (ds & Hd & E). exists ds. now rewrite <- H, <- E.
  - intros (ds & Hd & ->). split; [now eexists|].
    change (skipn 7 (S_CLASSES ++ ds ++ S_DOTDEX)) with (ds ++ S_DOTDEX). now rewrite drop_digits_app.
Qed.

Theorem dex_search_eq : forall n, dex_search n = dex_match n.
Proof.
  intros n. unfold dex_search, dex_match. destruct (starts_with S_CLASSES n); [|reflexivity]. cbn [andb].
  destruct (skipn 7 n) as [|c t]; [reflexivity|]. cbn [drop_digits]. destruct ((48 <=? c) && (c <=? 57)); reflexivity.
Qed.

Lemma get_file_present : forall a n c, NoDup (map fst a) -> In (n, c) a -> get_file a n = Ok c.
Proof.
  intros a n c Hnd Hin. unfold get_file. destruct (find _ a) as [[m d]|] eqn:E.
  - apply find_some in E as [Hm E]. apply list_eqb_Z_eq in E. now rewrite (NoDup_map_inj fst a Hnd Hm Hin E).
  - apply (find_none _ _ E), not_true_iff_false in Hin. destruct Hin. now apply list_eqb_Z_eq.
Qed.
Lemma get_file_missing : forall a n, ~ In n (map fst a) -> get_file a n = Err FileNotPresent.
Proof.
  intros a n Hn. unfold get_file. destruct (find _ a) as [e|] eqn:E; [|reflexivity].
  apply find_some in E as [Hin He]. apply list_eqb_Z_eq in He. destruct Hn. rewrite <- He. now apply in_map.
Qed.

Theorem get_dex_names_spec : forall a n, In n (get_dex_names a) <-> In n (get_files a) /\ is_dex_name n.
Proof. intros a n. unfold get_dex_names. rewrite filter_In, dex_match_spec. reflexivity. Qed.

Lemma filter_map_swap {A B} (f : A -> B) p l : filter p (map f l) = map f (filter (fun x => p (f x)) l).
Proof. induction l as [|x l IH]; cbn [map filter]; [reflexivity|]. destruct (p (f x)); cbn [map]; now rewrite IH. Qed.

Theorem get_all_dex_spec : forall a, NoDup (map fst a) ->
  get_all_dex a = map (fun e => Ok (snd e)) (filter (fun e => dex_match (fst e)) a).
Proof.
  intros a Hnd. unfold get_all_dex, get_dex_names, get_files. rewrite filter_map_swap, map_map.
  apply map_ext_in. intros [n c] Hin. apply filter_In in Hin as [Hin _]. now apply get_file_present.
Qed.

Theorem is_multidex_spec : forall a, is_multidex a = true <-> (2 <= length (get_dex_names a))%nat.
Proof.
  intros a. unfold is_multidex, get_dex_names. rewrite (filter_ext _ _ dex_search_eq). lia.
Qed.
