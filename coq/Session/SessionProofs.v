(* C36 - every schedule of the single-insert protocol gives every process its own key. *)
From Coq Require Import ZArith List Bool Lia.
Require Import V.Lib.Val V.Lib.Result V.Lib.ListFacts V.Session.SessionModel.
Import ListNotations.
Open Scope Z_scope.

Lemma next_id_fresh : forall tbl, ~ In (next_id tbl) tbl.
Proof. intros tbl H. unfold next_id in H. destruct (fold_max_spec tbl 0) as [_ H2]. specialize (H2 _ (or_intror H)). lia. Qed.

Lemma update_split : forall {A} (l : list A) i p (f : A -> A), nth_error l i = Some p ->
  exists l1 l2, l = l1 ++ p :: l2 /\ update l i f = l1 ++ f p :: l2.
Proof.
  induction l as [|x l IH]; intros i p f H; destruct i; simpl in H; try discriminate.
  - inversion H; subst. exists [], l. split; reflexivity.
  - destruct (IH i p f H) as [l1 [l2 [E1 E2]]]. exists (x :: l1), l2. simpl. rewrite <- E1, E2. split; reflexivity.
Qed.
Lemma update_same {A} {l : list A} {i p} : nth_error l i = Some p -> update l i (fun _ => p) = l.
Proof. intros H. destruct (update_split l i p (fun _ => p) H) as (l1 & l2 & E1 & E2). congruence. Qed.
Lemma update_length : forall {A} (l : list A) i f, length (update l i f) = length l.
Proof. induction l as [|x l IH]; intros [|i] f; simpl; try reflexivity. now rewrite IH. Qed.
Lemma nth_error_update_same : forall {A} (l : list A) i f p, nth_error l i = Some p -> nth_error (update l i f) i = Some (f p).
Proof. induction l as [|x l IH]; intros [|i] f p H; simpl in *; try discriminate; [inversion H; reflexivity|apply IH, H]. Qed.
Lemma nth_error_update_other : forall {A} (l : list A) i j f, i <> j -> nth_error (update l i f) j = nth_error l j.
Proof. induction l as [|x l IH]; intros [|i] [|j] f H; simpl; try reflexivity; try congruence. apply IH. congruence. Qed.

Definition assigned (ps : list proc) : list Z :=
  flat_map (fun p => match sid p with Some k => [k] | None => [] end) ps.
Definition fresh_proc := {| todo := PROTOCOL; sid := None; st := Running |}.
Definition proc_ok (tbl : list Z) (p : proc) : Prop :=
  p = fresh_proc \/ exists k, p = {| todo := []; sid := Some k; st := Done |} /\ In k tbl.
Definition Inv (s : state) : Prop :=
  NoDup (fst s) /\ Forall (proc_ok (fst s)) (snd s) /\ NoDup (assigned (snd s)) /\ incl (assigned (snd s)) (fst s).
Definition done_proc (k : Z) := {| todo := []; sid := Some k; st := Done |}.

Lemma assigned_app : forall a b, assigned (a ++ b) = assigned a ++ assigned b.
Proof. intros. unfold assigned. apply flat_map_app. Qed.
Lemma proc_ok_mono : forall tbl k p, proc_ok tbl p -> proc_ok (k :: tbl) p.
Proof. intros tbl k p [H|[j [H1 H2]]]; [left; exact H|right; exists j; split; [exact H1|right; exact H2]]. Qed.

Lemma step_cases : forall tbl ps i, Forall (proc_ok tbl) ps ->
  (step (tbl, ps) i = (tbl, ps) /\ forall p, nth_error ps i = Some p -> st p = Done) \/
  (nth_error ps i = Some fresh_proc /\
   step (tbl, ps) i = (next_id tbl :: tbl, update ps i (fun _ => done_proc (next_id tbl)))).
Proof.
  intros tbl ps i H. unfold step. cbn [fst snd]. destruct (nth_error ps i) as [p|] eqn:En; [|left; split; [reflexivity|discriminate]].
  destruct (proj1 (Forall_forall _ _) H p (nth_error_In _ _ En)) as [->|[k [-> _]]]; [right; split; reflexivity|left].
  cbn. rewrite (update_same En). split; [reflexivity|]. intros p E. injection E as <-. reflexivity.
Qed.

Lemma step_inv : forall s i, Inv s -> Inv (step s i).
Proof.
  intros [tbl ps] i [H1 [H2 [H3 H4]]]. cbn [fst snd] in *. destruct (step_cases tbl ps i H2) as [[-> _]|[En ->]]; [repeat split; assumption|].
  set (k := next_id tbl). pose proof (next_id_fresh tbl) as Hf. fold k in Hf.
  destruct (update_split ps i fresh_proc (fun _ => done_proc k) En) as (l1 & l2 & -> & ->).
  rewrite assigned_app in H3, H4. change (assigned (fresh_proc :: l2)) with (assigned l2) in H3, H4.
  assert (Ea : assigned (l1 ++ done_proc k :: l2) = assigned l1 ++ k :: assigned l2) by apply assigned_app.
  apply (Forall_impl _ (proc_ok_mono tbl k)) in H2. apply Forall_app in H2 as [Ha Hb].
  repeat split; cbn [fst snd].
  - constructor; assumption.
  - apply Forall_app. split; [exact Ha|]. constructor; [|exact (Forall_inv_tail Hb)].
    right. exists k. split; [reflexivity|left; reflexivity].
  - rewrite Ea. apply (NoDup_Add (Add_app k _ _)). split; [exact H3|]. intro Hin. apply Hf, H4, Hin.
  - rewrite Ea. intros x Hx. apply in_elt_inv in Hx as [->|Hx]; [left; reflexivity|right; apply H4, Hx].
Qed.

Lemma init_inv : forall n, Inv (init PROTOCOL n).
Proof.
  intros n. unfold init, Inv. cbn [fst snd]. fold fresh_proc. split; [constructor|]. split.
  - apply Forall_forall. intros p Hp. apply repeat_spec in Hp. left. exact Hp.
  - replace (assigned (repeat fresh_proc n)) with (@nil Z) by (induction n as [|n IH]; [reflexivity|exact IH]).
    split; [constructor|intros x []].
Qed.
Lemma fold_inv : forall sched s, Inv s -> Inv (fold_left step sched s).
Proof. induction sched as [|i sched IH]; intros s H; [exact H|]. apply IH, step_inv, H. Qed.

Lemma step_length : forall s i, length (snd (step s i)) = length (snd s).
Proof.
  intros [tbl ps] i. unfold step. cbn [fst snd]. destruct (nth_error ps i) as [p|]; [|reflexivity].
  destruct (exec tbl p) as [t' p']. cbn [snd]. apply update_length.
Qed.
Lemma fold_length : forall sched s, length (snd (fold_left step sched s)) = length (snd s).
Proof. induction sched as [|i sched IH]; intros s; [reflexivity|]. cbn [fold_left]. rewrite IH. apply step_length. Qed.

Definition done_at (s : state) (i : nat) : Prop := exists p, nth_error (snd s) i = Some p /\ st p = Done.

Lemma step_done : forall s i j, Inv s -> (j < length (snd s))%nat -> i = j \/ done_at s j -> done_at (step s i) j.
Proof.
  intros [tbl ps] i j [_ [H2 _]] Hj H. unfold done_at in *. cbn [fst snd] in *.
  destruct (step_cases tbl ps i H2) as [[-> Hd]|[En ->]]; cbn [snd].
  - destruct H as [->|H]; [|exact H]. destruct (nth_error ps j) as [p|] eqn:En; [|apply nth_error_None in En; lia].
    exists p. split; [reflexivity|apply Hd; reflexivity].
  - destruct (Nat.eq_dec i j) as [->|Hij].
    + exists (done_proc (next_id tbl)). split; [exact (nth_error_update_same ps j (fun _ => _) _ En)|reflexivity].
    + rewrite nth_error_update_other by exact Hij. destruct H as [H|H]; [contradiction|exact H].
Qed.
Lemma fold_done : forall sched s j, Inv s -> (j < length (snd s))%nat -> (In j sched \/ done_at s j) ->
  done_at (fold_left step sched s) j.
Proof.
  induction sched as [|i sched IH]; intros s j Hinv Hj H; cbn [fold_left].
  - destruct H as [[]|H]; exact H.
  - apply IH; [apply step_inv, Hinv|rewrite step_length; exact Hj|].
    destruct H as [[->|H]|H]; [right; apply step_done; auto|left; exact H|right; apply step_done; auto].
Qed.

Lemma drain_covers : forall n j, (j < n)%nat -> In j (drain (length PROTOCOL) n).
Proof.
  intros n j Hj. unfold drain. apply in_flat_map. exists j. split; [apply in_seq; lia|]. left. reflexivity.
Qed.

Theorem all_schedules_ok : forall n sched,
  let s := run PROTOCOL n sched in
  length (snd s) = n /\
  Forall (fun p => st p = Done /\ exists k, sid p = Some k /\ In k (fst s)) (snd s) /\
  NoDup (assigned (snd s)) /\ length (assigned (snd s)) = n.
Proof.
  intros n sched s. unfold run in s.
  assert (Hn : length (snd (init PROTOCOL n)) = n) by apply repeat_length.
  assert (Hlen : length (snd s) = n) by (unfold s; rewrite fold_length; exact Hn).
  destruct (fold_inv _ _ (init_inv n) : Inv s) as [_ [H2 [H3 _]]].
  assert (Hall : Forall (fun p => st p = Done /\ exists k, sid p = Some k /\ In k (fst s)) (snd s)).
  { apply Forall_forall. intros p Hp. destruct (In_nth_error _ _ Hp) as [j Hj].
    assert (Hjn : (j < n)%nat) by (rewrite <- Hlen; apply nth_error_Some; congruence).
    destruct (fold_done (sched ++ drain (length PROTOCOL) n) _ j (init_inv n)) as [q [Hq Hd]].
    { rewrite Hn. exact Hjn. }
    { left. apply in_or_app. right. apply drain_covers, Hjn. }
    fold s in Hq. rewrite Hj in Hq. injection Hq as <-.
    destruct (proj1 (Forall_forall _ _) H2 p Hp) as [->|[k [-> Hk]]]; [discriminate|].
    split; [reflexivity|exists k; split; [reflexivity|exact Hk]]. }
  split; [exact Hlen|]. split; [exact Hall|]. split; [exact H3|].
  rewrite <- Hlen. clear - Hall. induction Hall as [|p ps [_ [k [Hk _]]] _ IH]; [reflexivity|].
  cbn. rewrite Hk. cbn. f_equal. exact IH.
Qed.
