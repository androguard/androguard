(* C39 - load_perm returns the level the fallback rule names: the requested one if it is there, else the greatest below it,
   else the least.  One round moves to such a level, the next finds it (load_hit), so two rounds of fuel do; and the rule
   names one level only (chosen_unique). *)
From Coq Require Import ZArith List Bool Lia.
Require Import V.Lib.Val V.Lib.Result V.Lib.ListFacts V.Conf.ApiLevelModel.
Import ListNotations.
Open Scope Z_scope.

Lemma has_In levels a : has levels a = true <-> In a levels.
Proof. exact (existsb_eqb_In a levels). Qed.
Lemma lmax_spec : forall l x, In (lmax x l) (x :: l) /\ forall y, In y (x :: l) -> y <= lmax x l.
Proof. exact fold_max_spec. Qed.
Lemma lmin_spec : forall l x, In (lmin x l) (x :: l) /\ forall y, In y (x :: l) -> lmin x l <= y.
Proof. exact fold_min_spec. Qed.

Lemma load_perm_S f x rest api : load_perm (S f) (x :: rest) api =
  if has (x :: rest) api then Ok (Some api)
  else if lmax x rest <? api then load_perm f (x :: rest) (lmax x rest)
  else if api <? lmin x rest then load_perm f (x :: rest) (lmin x rest)
  else match filter (fun y => y <? api) (x :: rest) with
       | [] => Err ValueError
       | y :: lows => load_perm f (x :: rest) (lmax y lows)
       end.
Proof. reflexivity. Qed.

Lemma load_hit f levels a : In a levels -> load_perm (S f) levels a = Ok (Some a).
Proof.
  intros H. destruct levels as [|x rest]; [destruct H|]. rewrite load_perm_S.
  apply has_In in H. rewrite H. reflexivity.
Qed.

Lemma chosen_below levels api l :
  ~ In api levels -> In l levels -> l < api -> (forall x, In x levels -> x < api -> x <= l) -> chosen levels api l.
Proof.
  intros Hn Hl Hlt Hmax. split; [exact Hl|]. split; [intros Hin; contradiction|]. split.
  - intros _ _. split; assumption.
  - intros _ Hall x Hx. specialize (Hall l Hl). lia.
Qed.

Theorem load_perm_spec f levels api : levels <> [] ->
  exists l, load_perm (S (S f)) levels api = Ok (Some l) /\ chosen levels api l.
Proof.
  intros Hne. destruct levels as [|x rest]; [congruence|]. rewrite load_perm_S.
  destruct (lmax_spec rest x) as [MI MB], (lmin_spec rest x) as [mI mB]. set (levels := x :: rest) in *.
  destruct (has levels api) eqn:Hh.
  { apply has_In in Hh. exists api. split; [reflexivity|]. split; [exact Hh|]. split; [reflexivity|]. split; intros Hn; contradiction. }
  assert (Hn : ~ In api levels) by (rewrite <- has_In, Hh; discriminate).
  destruct (Z.ltb_spec (lmax x rest) api) as [HM|HM].
  - exists (lmax x rest). split; [apply load_hit, MI|]. apply chosen_below; auto.
  - destruct (Z.ltb_spec api (lmin x rest)) as [Hm|Hm].
    + exists (lmin x rest). split; [apply load_hit, mI|]. split; [exact mI|]. split; [intros Hin; contradiction|]. split.
      * intros _ (z & Hz & Hlt). specialize (mB _ Hz). lia.
      * intros _ _ z Hz. apply mB, Hz.
    + (* some level lies below api: the greatest of those *)
      assert (Hlow : In (lmin x rest) (filter (fun y => y <? api) levels)).
      { apply filter_In. split; [exact mI|]. apply Z.ltb_lt.
        assert (lmin x rest <> api) by (intros E; apply Hn; rewrite <- E; exact mI). lia. }
      destruct (filter (fun y => y <? api) levels) as [|y lows] eqn:Ef; [destruct Hlow|].
      destruct (lmax_spec lows y) as [LI LB]. rewrite <- Ef in LI, LB.
      apply filter_In in LI as [LI Llt]. apply Z.ltb_lt in Llt.
      exists (lmax y lows). split; [apply load_hit, LI|]. apply chosen_below; try assumption.
      intros z Hz Hzlt. apply LB, filter_In. split; [exact Hz|apply Z.ltb_lt, Hzlt].
Qed.

Lemma load_perm_empty f api : load_perm (S f) [] api = Ok None.
Proof. reflexivity. Qed.

(* the rule leaves no choice of level, so load_perm_spec determines the result *)
Lemma chosen_unique levels api l1 l2 : chosen levels api l1 -> chosen levels api l2 -> l1 = l2.
Proof.
  intros (I1 & A1 & B1 & C1) (I2 & A2 & B2 & C2).
  destruct (in_dec Z.eq_dec api levels) as [Hin|Hn]; [rewrite (A1 Hin), (A2 Hin); reflexivity|].
  (* if some level lies below api, both are the greatest such; otherwise both are the least level *)
  assert (E : (exists x, In x levels /\ x < api) -> l1 = l2).
  { intros E. destruct (B1 Hn E) as [L1 U1], (B2 Hn E) as [L2 U2]. specialize (U1 _ I2 L2). specialize (U2 _ I1 L1). lia. }
  destruct (Z.eq_dec l1 l2) as [|N]; [assumption|].
  assert (Hall : forall x, In x levels -> api < x).
  { intros x Hx. destruct (Z_lt_dec x api); [destruct N; eauto|]. assert (x <> api) by congruence. lia. }
  specialize (C1 Hn Hall _ I2). specialize (C2 Hn Hall _ I1). lia.
Qed.

(* the module level: an explicit level (int or str, 0 included) is the level requested; None or ''
   mean the default *)
Theorem module_perm_spec f levels default a : levels <> [] ->
  exists l, load_module (load_perm (S (S f)) levels) default a = Ok (Some l) /\
            chosen levels (if not_given a then default else arg_value default a) l.
Proof.
  intros Hne. unfold load_module.
  destruct (load_perm_spec f levels (if not_given a then default else arg_value default a) Hne) as (l & -> & Hc).
  exists l. split; [reflexivity | exact Hc].
Qed.

Theorem module_map_spec mlevels default a : In default mlevels ->
  let api := if not_given a then default else arg_value default a in
  load_module (load_map mlevels) default a = Ok (Some (if has mlevels api then api else default)).
Proof.
  intros Hd api. unfold load_module. fold api. unfold load_map.
  destruct (has mlevels api) eqn:E; [reflexivity|].
  apply has_In in Hd. rewrite Hd. reflexivity.
Qed.
