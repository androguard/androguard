(* C38 - clean_file_name as modelled returns the directory of its argument joined with a base name that holds no reserved
   character, does not end in a space or a dot, is at most PATH_MAX_LENGTH long and, when asked for, names no existing
   file; the uniqueness loop ends within 2 * |fs| + 3 probes because different counters give different probes *)
From Coq Require Import ZArith List Bool Lia ZifyBool FinFun.
Require Import V.Lib.Val V.Lib.Result V.Lib.ListFacts V.Misc.CleanNameModel.
Import ListNotations.
Open Scope Z_scope.

Lemma take_drop_while : forall p s, take_while p s ++ drop_while p s = s.
Proof. induction s as [|c t IH]; simpl; [reflexivity|]. destruct (p c); simpl; [now rewrite IH|reflexivity]. Qed.
Lemma Forall_take_while_p : forall p s, Forall (fun c => p c = true) (take_while p s).
Proof. induction s as [|c t IH]; simpl; [constructor|]. destruct (p c) eqn:E; constructor; assumption. Qed.
Definition stops (p : Z -> bool) (r : list Z) : Prop := match r with [] => True | c :: _ => p c = false end.
Lemma take_drop_while_app {p a r} : Forall (fun x => p x = true) a -> stops p r ->
  take_while p (a ++ r) = a /\ drop_while p (a ++ r) = r.
Proof.
  induction 1 as [|x a Hx Ha IH]; intros Hr; cbn [app take_while drop_while].
  - destruct r as [|c r]; [auto|]. cbn in *. rewrite Hr. auto.
  - rewrite Hx. destruct (IH Hr) as [-> ->]. auto.
Qed.

Lemma Forall_take_drop_while : forall (P : Z -> Prop) p s, Forall P s -> Forall P (take_while p s) /\ Forall P (drop_while p s).
Proof. intros P p s H. apply Forall_app. now rewrite take_drop_while. Qed.

Lemma zlen_app : forall a b, zlen (a ++ b) = zlen a + zlen b.
Proof. intros. unfold zlen. rewrite app_length. lia. Qed.
Lemma zlen_nonneg : forall a, 0 <= zlen a.
Proof. intros. unfold zlen. lia. Qed.
Lemma slice_to_len : forall n s, 0 <= n -> zlen (slice_to n s) <= n.
Proof.
  intros n s Hn. unfold slice_to, zlen. replace (0 <=? n) with true by lia.
  pose proof (firstn_le_length (Z.to_nat n) s). lia.
Qed.
Lemma slice_to_len2 : forall n s, zlen (slice_to n s) <= zlen s.
Proof. intros n s. unfold slice_to, zlen. destruct (0 <=? n); rewrite firstn_length; lia. Qed.
Lemma Forall_slice_to : forall (P : Z -> Prop) n s, Forall P s -> Forall P (slice_to n s).
Proof. intros P n s H. unfold slice_to. destruct (0 <=? n); apply Forall_firstn_skipn, H. Qed.
Lemma Forall_rpart_ext : forall (P : Z -> Prop) s, Forall P s -> Forall P (rpart_ext s).
Proof. intros P s H. apply Forall_rev, Forall_take_drop_while, Forall_rev, H. Qed.
Lemma Forall_rpart_f : forall (P : Z -> Prop) s, Forall P s -> Forall P (rpart_f s).
Proof.
  intros P s H. apply Forall_rev. apply Forall_rev, (Forall_take_drop_while P (fun c => negb (c =? DOT))) in H as [_ H].
  destruct H; [constructor | assumption].
Qed.

Definition normdir (p : list Z) : Prop :=
  p = [] \/ (p <> [] /\ forallb is_slash p = true) \/ (exists q c, p = q ++ [c] /\ is_slash c = false).

Lemma rev_drop_while_norm : forall h, forallb is_slash h = false ->
  exists q c, rev (drop_while is_slash (rev h)) = q ++ [c] /\ is_slash c = false.
Proof.
  induction h as [|c q IH] using rev_ind; intros Hh; [discriminate|]. rewrite rev_unit. cbn [drop_while].
  rewrite forallb_app in Hh. cbn [forallb] in Hh.
  destruct (is_slash c) eqn:Ec; [apply IH; lia | exists q, c; cbn [rev]; now rewrite rev_involutive].
Qed.

Lemma py_split_norm : forall s, normdir (fst (py_split s)).
Proof.
  intros s. unfold py_split. simpl. destruct (forallb is_slash (split_head_raw s)) eqn:E.
  - destruct (split_head_raw s) eqn:Eh; [left; reflexivity|]. right; left. split; [discriminate|assumption].
  - right; right. apply rev_drop_while_norm, E.
Qed.

Definition noslash (b : list Z) : Prop := Forall (fun c => negb (is_slash c) = true) b.

(* a path that ends with a slash (or is empty) followed by a name without one *)
Lemma py_split_app : forall h b, noslash b -> stops (fun c => negb (is_slash c)) (rev h) ->
  py_split (h ++ b) = (if forallb is_slash h then h else rev (drop_while is_slash (rev h)), b).
Proof.
  intros h b Hb Hh. unfold py_split, split_head_raw, split_tail. rewrite rev_app_distr.
  destruct (take_drop_while_app (Forall_rev Hb) Hh) as [-> ->]. now rewrite !rev_involutive.
Qed.

Lemma last_app_single : forall (q : list Z) c d, last (q ++ [c]) d = c.
Proof. intros. apply last_last. Qed.

Lemma py_join_nil_l : forall b, py_join [] b = b.
Proof. intros [|c t]; [reflexivity|]. unfold py_join. destruct (is_slash c); reflexivity. Qed.
Lemma py_join_noslash : forall a b, noslash b -> a <> [] ->
  py_join a b = if is_slash (last a 0) then a ++ b else a ++ [SLASH] ++ b.
Proof.
  intros a b Hb Ha. unfold py_join. destruct a; [congruence|]. destruct Hb as [|c t Hc _]; [reflexivity|].
  destruct (is_slash c); [discriminate | reflexivity].
Qed.

Lemma py_split_join : forall p b, normdir p -> noslash b -> py_split (py_join p b) = (p, b).
Proof.
  intros p b [-> | [[Hne Hall] | (q & c & -> & Hc)]] Hb.
  - rewrite py_join_nil_l. apply (py_split_app [] b Hb I).
  - destruct (exists_last Hne) as (q & c & ->).
    assert (Hc : is_slash c = true) by (rewrite forallb_app in Hall; cbn [forallb] in Hall; lia).
    rewrite py_join_noslash, last_last, Hc by assumption.
    rewrite py_split_app, Hall; [reflexivity | assumption | rewrite rev_unit; cbn; now rewrite Hc].
  - rewrite py_join_noslash, last_last, Hc; [|assumption | now destruct q].
    rewrite app_assoc, py_split_app; [|assumption | now rewrite rev_unit].
    rewrite !forallb_app. cbn [forallb]. rewrite Hc, !rev_unit. cbn. rewrite Hc, andb_false_r. cbn. now rewrite rev_involutive.
Qed.

Definition okc (c : Z) : Prop := reserved c = false.
Definition ends_bad (s : list Z) : bool :=
  match rev s with c :: _ => (c =? SPACE) || (c =? DOT) | [] => false end.
Definition good_repl (r : Z) : Prop := bad_replace_char r = false.

Lemma good_repl_okc : forall r, good_repl r -> okc r.
Proof. unfold good_repl, okc, bad_replace_char. lia. Qed.
Lemma okc_noslash : forall s, Forall okc s -> noslash s.
Proof. apply Forall_impl. unfold okc, reserved, is_slash, SLASH. lia. Qed.

Lemma ends_bad_snoc : forall q c, ends_bad (q ++ [c]) = (c =? SPACE) || (c =? DOT).
Proof. intros. unfold ends_bad. now rewrite rev_unit. Qed.
Lemma ends_bad_app : forall x y, y <> [] -> ends_bad (x ++ y) = ends_bad y.
Proof. intros x y Hy. destruct (exists_last Hy) as (q & c & ->). now rewrite app_assoc, !ends_bad_snoc. Qed.
Lemma ends_bad_Forall : forall s, Forall (fun c => (c =? SPACE) || (c =? DOT) = false) s -> ends_bad s = false.
Proof. intros s H. destruct s as [|c q _] using rev_ind; [reflexivity|]. rewrite ends_bad_snoc. now apply Forall_app in H as [_ H%Forall_inv]. Qed.

Lemma sub_reserved_ok : forall r s, okc r -> Forall okc (sub_reserved [r] s).
Proof.
  intros r s Hr. unfold sub_reserved. induction s as [|c t IH]; simpl; [constructor|].
  destruct (reserved c) eqn:E; simpl; constructor; assumption.
Qed.

(* the suffix u put in front of the extension of s, or at its end, and s cut to make room for it:
   truncate is the case of no suffix, candidate that of the counter *)
Definition room (u s : list Z) : bool := has_dot s && (zlen (rpart_ext s) + 1 + zlen u <? PATH_MAX_LENGTH).
Definition fit (u s : list Z) : list Z :=
  if room u s then slice_to (PATH_MAX_LENGTH - (zlen (rpart_ext s) + 1 + zlen u)) (rpart_f s) ++ u ++ [DOT] ++ rpart_ext s
  else slice_to (PATH_MAX_LENGTH - zlen u) s ++ u.
Lemma truncate_fit : forall s, truncate s = if PATH_MAX_LENGTH <? zlen s then fit [] s else s.
Proof.
  intros s. unfold truncate, fit, room. cbn [zlen length Z.of_nat app]. now rewrite Z.add_0_r, Z.sub_0_r, app_nil_r.
Qed.
Lemma candidate_fit : forall s k, candidate s k = fit (USCORE :: dec k) s.
Proof. reflexivity. Qed.

Lemma fit_ok : forall u s, Forall okc u -> Forall okc s -> Forall okc (fit u s).
Proof.
  intros u s Hu Hs. unfold fit. destruct (room u s); rewrite !Forall_app.
  - split; [apply Forall_slice_to, Forall_rpart_f, Hs|]. split; [exact Hu|]. split; [now repeat constructor | apply Forall_rpart_ext, Hs].
  - split; [apply Forall_slice_to, Hs | exact Hu].
Qed.
Lemma fit_len : forall u s, zlen u <= PATH_MAX_LENGTH -> zlen (fit u s) <= PATH_MAX_LENGTH.
Proof.
  intros u s Hu. unfold fit, room. destruct (has_dot s && _) eqn:E; rewrite !zlen_app.
  - pose proof (slice_to_len (PATH_MAX_LENGTH - (zlen (rpart_ext s) + 1 + zlen u)) (rpart_f s)). change (zlen [DOT]) with 1. lia.
  - pose proof (slice_to_len (PATH_MAX_LENGTH - zlen u) s). lia.
Qed.
(* with room the result ends like the extension, without like the suffix *)
Lemma fit_ends : forall u s, u <> [] -> ends_bad u = false -> ends_bad s = false -> ends_bad (fit u s) = false.
Proof.
  intros u s Hne Hu Hs. unfold fit. destruct (room u s) eqn:R; [|now rewrite ends_bad_app].
  (* s has a dot, so it is not empty; its last character is no dot and so belongs to the extension *)
  apply andb_true_iff in R as [Hd _]. destruct s as [|c q _] using rev_ind; [discriminate|]. rewrite ends_bad_snoc in Hs.
  unfold rpart_ext. rewrite rev_unit. cbn [take_while]. replace (negb (c =? DOT)) with true by lia.
  cbn [rev]. now rewrite !app_assoc, ends_bad_snoc.
Qed.

Lemma has_dot_nonempty : forall s, has_dot s = true -> s <> [].
Proof. intros [|c t] H; discriminate. Qed.

Lemma truncate_ok : forall s, Forall okc s -> Forall okc (truncate s).
Proof. intros s H. rewrite truncate_fit. destruct (_ <? _); [apply fit_ok; [constructor | exact H] | exact H]. Qed.
Lemma truncate_len : forall s, zlen (truncate s) <= PATH_MAX_LENGTH.
Proof. intros s. rewrite truncate_fit. destruct (_ <? _) eqn:E; [now apply fit_len | lia]. Qed.

Lemma sub_tail_snoc : forall r q c, sub_tail r (q ++ [c]) = if (c =? SPACE) || (c =? DOT) then q ++ r else q ++ [c].
Proof. intros. unfold sub_tail. now rewrite rev_unit, rev_involutive. Qed.
Lemma sub_tail_ok : forall r s, okc r -> Forall okc s -> Forall okc (sub_tail [r] s).
Proof.
  intros r s Hr H. destruct s as [|c q _] using rev_ind; [exact H|]. rewrite sub_tail_snoc. destruct (_ || _); [|exact H].
  apply Forall_app in H as [H _]. apply Forall_app. auto.
Qed.
Lemma sub_tail_len : forall r s, zlen (sub_tail [r] s) = zlen s.
Proof.
  intros r s. destruct s as [|c q _] using rev_ind; [reflexivity|]. rewrite sub_tail_snoc. destruct (_ || _); [|reflexivity]. now rewrite !zlen_app.
Qed.
Lemma sub_tail_ends : forall r s, good_repl r -> ends_bad (sub_tail [r] s) = false.
Proof.
  intros r s Hr. destruct s as [|c q _] using rev_ind; [reflexivity|]. rewrite sub_tail_snoc.
  destruct (_ || _) eqn:E; rewrite ends_bad_snoc; [|exact E]. unfold good_repl, bad_replace_char in Hr. lia.
Qed.

Lemma clean_base_ok : forall r s, good_repl r -> Forall okc (clean_base [r] s).
Proof. intros r s Hr. apply good_repl_okc in Hr. apply sub_tail_ok, truncate_ok, sub_reserved_ok; exact Hr. Qed.
Lemma clean_base_len : forall r s, zlen (clean_base [r] s) <= PATH_MAX_LENGTH.
Proof. intros. unfold clean_base. rewrite sub_tail_len. apply truncate_len. Qed.
Lemma clean_base_ends : forall r s, good_repl r -> ends_bad (clean_base [r] s) = false.
Proof. intros. apply sub_tail_ends. assumption. Qed.

Definition is_digit (c : Z) : bool := (48 <=? c) && (c <=? 57).
(* the suffix is '%d' of Lib/Fmt.v, which is loaded here and not at the head: it sets the zify hook for division, and
   some [lia] calls above do not go through with it *)
Require V.Lib.Fmt.
Lemma dec_aux_fmt : forall f k, dec_aux f k = map (Fmt.digit_char false) (Fmt.digits_aux f 10 k).
Proof.
  assert (D : forall k, 48 + k mod 10 = Fmt.digit_char false (k mod 10))
    by (intros k; unfold Fmt.digit_char; pose proof (Z.mod_pos_bound k 10); now replace (k mod 10 <? 10) with true by lia).
  induction f as [|f IH]; intros k; cbn [dec_aux Fmt.digits_aux map]; [now rewrite D|].
  destruct (k <? 10) eqn:E; cbn [map]; [unfold Fmt.digit_char; now rewrite E|]. now rewrite map_app, IH, D.
Qed.
Lemma dec_fmt k : dec k = Fmt.dec k.
Proof. apply dec_aux_fmt. Qed.

Lemma dec_len : forall k, 0 <= k < 2 ^ 200 -> zlen (dec k) <= 201.
Proof.
  intros k Hk. rewrite dec_fmt. unfold Fmt.dec, Fmt.digits, zlen. rewrite map_length.
  pose proof (Fmt.digits_aux_len 10 (Z.to_nat (Z.log2 k)) k).
  assert (Z.log2 k < 200) by (destruct (Z.eq_dec k 0) as [->|]; [reflexivity | apply Z.log2_lt_pow2; lia]).
  pose proof (Z.log2_nonneg k). lia.
Qed.
Lemma dec_digits : forall k, 0 <= k -> Forall (fun c => is_digit c = true) (dec k).
Proof.
  intros k Hk. rewrite dec_fmt. apply Forall_map. eapply Forall_impl; [|apply (Fmt.digits_range 10 k); lia].
  intros d Hd. unfold is_digit, Fmt.digit_char. cbv beta in Hd. replace (d <? 10) with true by lia. lia.
Qed.
Lemma suffix_ok : forall k, 0 <= k -> Forall okc (USCORE :: dec k).
Proof. intros k Hk. constructor; [reflexivity|]. eapply Forall_impl; [|apply dec_digits, Hk]. unfold is_digit, okc, reserved. lia. Qed.

Lemma candidate_ok : forall s k, Forall okc s -> 0 <= k -> Forall okc (candidate s k).
Proof. intros s k Hs Hk. apply fit_ok; [apply suffix_ok, Hk | exact Hs]. Qed.
Lemma candidate_len : forall s k, 0 <= k < 2 ^ 200 -> zlen (candidate s k) <= PATH_MAX_LENGTH.
Proof. intros s k Hk. apply fit_len. pose proof (dec_len k Hk). unfold zlen, PATH_MAX_LENGTH in *. cbn [length]. lia. Qed.
Lemma candidate_ends : forall s k, ends_bad s = false -> 0 <= k -> ends_bad (candidate s k) = false.
Proof.
  intros s k Hs Hk. apply fit_ends; [discriminate | | exact Hs].
  apply ends_bad_Forall. constructor; [reflexivity|]. eapply Forall_impl; [|apply dec_digits, Hk]. unfold is_digit, SPACE, DOT. lia.
Qed.

Lemma isfile_In : forall fs p, isfile fs p = true <-> In p fs.
Proof. intros fs p. exact (existsb_list_eqb_In p fs). Qed.

Lemma uniq_loop_result : forall fuel fs path orig fname k res,
  uniq_loop fuel fs path orig fname k = Ok res ->
  isfile fs (py_join path res) = false /\
  (res = fname \/ exists j, k <= j < k + Z.of_nat fuel /\ res = candidate orig j).
Proof.
  induction fuel as [|f IH]; intros fs path orig fname k res H; [discriminate|].
  cbn [uniq_loop] in H. destruct (isfile fs (py_join path fname)) eqn:E.
  - apply IH in H as [H1 H2]. split; [exact H1|]. right.
    destruct H2 as [-> | (j & Hj & ->)]; [exists k | exists j]; split; (lia || reflexivity).
  - injection H as <-. auto.
Qed.

(* what is returned is the directory of the argument joined with a base name that meets the requirements *)
Theorem clean_file_name_result : forall fuel fs filename unique r res,
  good_repl r -> clean_file_name fuel fs filename unique [r] = Ok res ->
  exists base, res = py_join (fst (py_split filename)) base /\
    Forall okc base /\ ends_bad base = false /\ (Z.of_nat fuel <= 2 ^ 200 -> zlen base <= PATH_MAX_LENGTH) /\
    (unique = true -> ~ In res fs).
Proof.
  intros fuel fs filename unique r res Hr H. unfold clean_file_name in H. rewrite Hr in H.
  destruct (py_split filename) as [path fname]. cbn [fst].
  pose proof (clean_base_ok r fname Hr) as Hok. pose proof (clean_base_len r fname) as Hlen. pose proof (clean_base_ends r fname Hr) as Hends.
  destruct unique; [|injection H as <-; exists (clean_base [r] fname); repeat split; auto; discriminate].
  destruct (uniq_loop fuel fs path _ _ 0) as [f|e] eqn:El; [|discriminate]. injection H as <-.
  apply uniq_loop_result in El as [Hnot Hwhich]. exists f. split; [reflexivity|].
  assert (Hin : true = true -> ~ In (py_join path f) fs) by (intros _ Hin; apply isfile_In in Hin; congruence).
  destruct Hwhich as [-> | (j & Hj & ->)]; [auto|].
  split; [apply candidate_ok|split; [apply candidate_ends|split; [intros Hf; apply candidate_len|exact Hin]]]; (assumption || lia).
Qed.

Theorem clean_file_name_spec : forall fuel fs filename unique r res,
  good_repl r -> Z.of_nat fuel <= 2 ^ 200 ->
  clean_file_name fuel fs filename unique [r] = Ok res ->
  exists base, py_split res = (fst (py_split filename), base) /\
    Forall okc base /\ ends_bad base = false /\ zlen base <= PATH_MAX_LENGTH /\
    (unique = true -> ~ In res fs).
Proof.
  intros fuel fs filename unique r res Hr Hfuel H.
  apply clean_file_name_result in H as (base & -> & Hok & He & Hl & Hu); [|exact Hr]. exists base.
  split; [apply py_split_join; [apply py_split_norm | apply okc_noslash, Hok] | auto].
Qed.

Theorem clean_file_name_bad_replace : forall fuel fs filename unique c t,
  bad_replace_char c = true -> clean_file_name fuel fs filename unique (c :: t) = Err ValueError.
Proof. intros. unfold clean_file_name. rewrite H. reflexivity. Qed.

(* the uniqueness loop ends: 2 * |fs| + 3 probes always suffice *)
Lemma dec_inj : forall k k', 0 <= k -> 0 <= k' -> dec k = dec k' -> k = k'.
Proof. intros k k' H H' E. rewrite <- (Fmt.dec_value k H), <- (Fmt.dec_value k' H'), <- !dec_fmt, E. reflexivity. Qed.

Lemma suffix_inj : forall X X' D D', Forall (fun c => is_digit c = true) D -> Forall (fun c => is_digit c = true) D' ->
  X ++ USCORE :: D = X' ++ USCORE :: D' -> D = D'.
Proof.
  intros X X' D D' HD HD' E. apply (f_equal (fun l => take_while is_digit (rev l))) in E.
  rewrite !rev_app_distr in E. cbn [rev] in E. rewrite <- !app_assoc in E.
  assert (T : forall Y L, Forall (fun c => is_digit c = true) L -> take_while is_digit (rev L ++ [USCORE] ++ Y) = rev L)
    by (intros Y L HL; apply take_drop_while_app; [apply Forall_rev, HL | reflexivity]).
  rewrite !T in E by assumption. now rewrite <- (rev_involutive D), E, rev_involutive.
Qed.

Lemma candidate_inj : forall orig k k', 0 <= k -> 0 <= k' -> room (USCORE :: dec k) orig = room (USCORE :: dec k') orig ->
  candidate orig k = candidate orig k' -> k = k'.
Proof.
  intros orig k k' Hk Hk' Hb E. rewrite !candidate_fit in E. unfold fit in E. rewrite <- Hb in E. apply dec_inj; try assumption.
  destruct (room _ orig); [rewrite !app_assoc in E; do 2 apply app_inv_tail in E|];
    (eapply suffix_inj; [apply dec_digits, Hk | apply dec_digits, Hk' | exact E]).
Qed.

Lemma py_join_inj : forall p b b', noslash b -> noslash b' -> py_join p b = py_join p b' -> b = b'.
Proof.
  intros p b b' Hb Hb' E. destruct p as [|c p]; [now rewrite !py_join_nil_l in E|].
  rewrite !py_join_noslash in E by (assumption || discriminate).
  destruct (is_slash _); [|apply app_inv_head in E]; apply app_inv_head in E; exact E.
Qed.

Lemma uniq_loop_err : forall fuel fs path orig fname k e,
  uniq_loop fuel fs path orig fname k = Err e ->
  forall j, k <= j < k + Z.of_nat fuel - 1 -> In (py_join path (candidate orig j)) fs.
Proof.
  induction fuel as [|f IH]; intros fs path orig fname k e H j Hj; [lia|].
  cbn [uniq_loop] in H. destruct (isfile fs (py_join path fname)) eqn:E; [|discriminate].
  destruct (Z.eq_dec j k) as [->|Hne]; [|eapply IH; [exact H|lia]].
  destruct f as [|f]; [lia|]. cbn [uniq_loop] in H.
  destruct (isfile fs (py_join path (candidate orig k))) eqn:E2; [apply isfile_In, E2 | discriminate].
Qed.

(* a probe is determined by its number, given on which side of the extension the counter stands: were all of the first
   2 * |fs| + 2 probes existing files, they would be as many different elements of {true, false} x fs *)
Lemma probe_inj : forall path orig, Forall okc orig ->
  Injective (fun n : nat => (room (USCORE :: dec (Z.of_nat n)) orig, py_join path (candidate orig (Z.of_nat n)))).
Proof.
  intros path orig Hok a b [= Hb E]. apply Nat2Z.inj.
  apply py_join_inj in E; try (apply okc_noslash, candidate_ok; [assumption|lia]).
  apply candidate_inj in E; (lia || assumption).
Qed.

Theorem uniq_loop_terminates : forall fs path orig,
  Forall okc orig ->
  exists res, uniq_loop (2 * length fs + 3) fs path orig orig 0 = Ok res.
Proof.
  intros fs path orig Hok.
  destruct (uniq_loop (2 * length fs + 3) fs path orig orig 0) as [res|e] eqn:E; [eexists; reflexivity|]. exfalso.
  pose proof (Injective_map_NoDup (probe_inj path orig Hok) (seq_NoDup (2 * length fs + 2) 0)) as N.
  apply (NoDup_incl_length (l' := list_prod [true; false] fs)) in N.
  - rewrite map_length, seq_length, prod_length in N. cbn [length] in N. lia.
  - intros x Hx. apply in_map_iff in Hx as (n & <- & Hn). apply in_seq in Hn.
    apply in_prod; [destruct (room _ orig); cbn; auto | eapply uniq_loop_err; [exact E | lia]].
Qed.

Theorem clean_file_name_terminates : forall fs filename unique r,
  good_repl r -> exists res, clean_file_name (2 * length fs + 3) fs filename unique [r] = Ok res.
Proof.
  intros fs filename unique r Hr. unfold clean_file_name. rewrite Hr.
  destruct (py_split filename) as [path fname]. destruct unique; [|eexists; reflexivity].
  destruct (uniq_loop_terminates fs path (clean_base [r] fname) (clean_base_ok r fname Hr)) as [res ->].
  eexists; reflexivity.
Qed.
