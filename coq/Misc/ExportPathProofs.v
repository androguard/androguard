(* C37 - everything the export creates lies inside the output directory: valid_class_name gives components that hold no
   slash and are neither '.' nor '..', joined by slashes; the last of them with the extension appended, and the cleaned
   method name with its extension as one more, are such components again *)
From Coq Require Import ZArith List Bool Lia.
Require Import V.Lib.Val V.Lib.Result V.Lib.ListFacts V.Misc.CleanNameModel V.Misc.CleanNameProofs V.Misc.ExportPathModel.
Import ListNotations.
Open Scope Z_scope.

(* a path component that cannot leave its directory *)
Definition plain (seg : list Z) : Prop :=
  seg <> [] /\ noslash seg /\ seg <> S_DOT /\ seg <> S_DOTDOT.
(* seg1/seg2/.../segn *)
Definition rel (segs : list (list Z)) : list Z :=
  match segs with [] => [] | p :: ps => fold_left (fun acc x => acc ++ [SLASH] ++ x) ps p end.
Definition inside (out p : list Z) : Prop :=
  exists segs, segs <> [] /\ Forall plain segs /\ p = py_join out (rel segs).

Lemma split_on_noslash : forall s, Forall noslash (split_on SLASH s).
Proof.
  induction s as [|c t IH]; simpl; [repeat constructor|].
  destruct (c =? SLASH) eqn:E; [constructor; [constructor|exact IH]|].
  assert (Hc : negb (is_slash c) = true) by (unfold is_slash; now rewrite E).
  destruct IH as [|h r Hh Hr]; repeat constructor; assumption.
Qed.

Lemma fix_part_plain : forall p, p <> [] -> noslash p -> plain (fix_part p).
Proof.
  intros p Hne Hns. unfold fix_part, str_eqb. destruct (_ || _) eqn:E.
  - repeat split; try discriminate. constructor; [reflexivity|exact Hns].
  - apply orb_false_iff in E as [E1 E2]. repeat split; try assumption; intros H; apply list_eqb_Z_eq in H; congruence.
Qed.

Lemma parts_plain : forall c, Forall plain (map fix_part (filter (fun p => negb (is_nil p)) (split_on SLASH c))).
Proof.
  intros c. pose proof (split_on_noslash c) as H. induction H as [|p l Hp Hl IH]; simpl; [constructor|].
  destruct p as [|x p]; simpl; [exact IH|]. constructor; [apply fix_part_plain; [discriminate|exact Hp]|exact IH].
Qed.

Definition ends_noslash (a : list Z) : Prop := exists q c, a = q ++ [c] /\ is_slash c = false.
Lemma plain_ends_noslash : forall p, plain p -> ends_noslash p.
Proof.
  intros p (Hne & Hns & _). destruct (exists_last Hne) as (q & c & ->). exists q, c. split; [reflexivity|].
  apply Forall_app in Hns as [_ H]. inversion H; subst. now apply negb_true_iff.
Qed.
Lemma ends_noslash_app : forall a b, ends_noslash b -> ends_noslash (a ++ b).
Proof. intros a b (q & c & -> & H). exists (a ++ q), c. now rewrite app_assoc. Qed.
Lemma py_join_adds_slash : forall a b, ends_noslash a -> noslash b -> py_join a b = a ++ [SLASH] ++ b.
Proof. intros a b (q & c & -> & Hc) Hb. rewrite py_join_noslash, last_last, Hc; [reflexivity | exact Hb | now destruct q]. Qed.
Lemma ends_noslash_py_join : forall a b, ends_noslash b -> ends_noslash (py_join a b).
Proof.
  intros a b Hb. unfold py_join. destruct b as [|c t]; [destruct Hb as ([|] & ? & [=] & _)|].
  destruct (is_slash c); [exact Hb|]. destruct a as [|a0 a]; [exact Hb|].
  destruct (is_slash _); repeat apply ends_noslash_app; exact Hb.
Qed.
Lemma py_join_app : forall a b z, b <> [] -> py_join a (b ++ z) = py_join a b ++ z.
Proof.
  intros a [|c t] z H; [congruence|]. unfold py_join. cbn [app]. destruct (is_slash c); [reflexivity|].
  destruct a as [|a0 a]; [reflexivity|]. destruct (is_slash _); now rewrite <- !app_assoc.
Qed.

Lemma fold_join_rel : forall ps p, ends_noslash p -> Forall plain ps -> fold_left py_join ps p = rel (p :: ps).
Proof.
  intros ps p Hp Hps. unfold rel. revert p Hp. induction Hps as [|x ps Hx Hps IH]; intros p Hp; cbn [fold_left]; [reflexivity|].
  rewrite py_join_adds_slash by (assumption || apply Hx). apply IH. do 2 apply ends_noslash_app. apply plain_ends_noslash, Hx.
Qed.
Lemma rel_snoc : forall segs x, segs <> [] -> rel (segs ++ [x]) = rel segs ++ [SLASH] ++ x.
Proof. intros [|p ps] x H; [congruence|]. unfold rel. simpl. rewrite fold_left_app. reflexivity. Qed.
Lemma rel_last_app : forall init l x, rel (init ++ [l]) ++ x = rel (init ++ [l ++ x]).
Proof. intros [|p ps] l x; [reflexivity|]. rewrite !rel_snoc by discriminate. now rewrite <- !app_assoc. Qed.
Lemma rel_ends_noslash : forall segs, segs <> [] -> Forall plain segs -> ends_noslash (rel segs).
Proof.
  intros segs Hne H. destruct (exists_last Hne) as (init & l & ->). apply Forall_app in H as [_ H]. inversion H; subst.
  change l with ([] ++ l). rewrite <- rel_last_app. now apply ends_noslash_app, plain_ends_noslash.
Qed.

Theorem valid_class_name_plain : forall c r, valid_class_name c = Ok r ->
  exists segs, segs <> [] /\ Forall plain segs /\ r = rel segs.
Proof.
  intros c r H. unfold valid_class_name in H. destruct c as [|c0 c]; [discriminate|].
  set (c' := if last (c0 :: c) 0 =? 59 then removelast (tl (c0 :: c)) else c0 :: c) in H.
  pose proof (parts_plain c') as Hp. injection H as <-.
  destruct (map fix_part _) as [|p ps].
  - exists [[USCORE]]. split; [discriminate|]. split; [|reflexivity]. constructor; [|constructor].
    repeat split; try discriminate. repeat constructor.
  - exists (p :: ps). split; [discriminate|]. split; [exact Hp|]. inversion Hp; subst. now apply fold_join_rel; [apply plain_ends_noslash|].
Qed.

Lemma plain_app : forall p x, noslash p -> noslash x -> x <> [] -> last x 0 <> 46 -> plain (p ++ x).
Proof.
  intros p x Hp Hx Hne Hl. destruct (exists_last Hne) as (y & c & ->). rewrite last_last in Hl.
  assert (L : last (p ++ y ++ [c]) 0 = c) by (rewrite app_assoc; apply last_last).
  repeat split; [now destruct p, y | now apply Forall_app | |]; intros E; rewrite E in L; now subst c.
Qed.
Lemma inside_last : forall out init l x, Forall plain init -> noslash l -> noslash x -> x <> [] -> last x 0 <> 46 ->
  inside out (py_join out (rel (init ++ [l ++ x]))).
Proof.
  intros out init l x Hi Hl Hx Hne Hd. exists (init ++ [l ++ x]). split; [now destruct init|]. split; [|reflexivity].
  apply Forall_app. split; [exact Hi|]. constructor; [now apply plain_app | constructor].
Qed.

Lemma clean_file_name_shape : forall fuel fs filename r res, good_repl r ->
  clean_file_name fuel fs filename true [r] = Ok res ->
  exists base, res = py_join (fst (py_split filename)) base /\ Forall okc base.
Proof.
  intros fuel fs filename r res Hr H. apply clean_file_name_result in H as (base & -> & Hok & _); eauto.
Qed.

Lemma unslash_noslash : forall s, noslash (unslash s).
Proof.
  intros s. apply Forall_forall. intros c Hc. apply in_map_iff in Hc as (x & <- & _).
  unfold is_slash. destruct (x =? SLASH) eqn:E; [reflexivity|now rewrite E].
Qed.

Definition created_inside (out : list Z) (c : created) : Prop :=
  match c with Dir p => inside out p | File p => inside out p end.

Theorem export_method_inside : forall fs dumped out cls short tr fs' d',
  export_method fs dumped out cls short = Ok (tr, fs', d') -> Forall (created_inside out) tr.
Proof.
  intros fs dumped out cls short tr fs' d' H. unfold export_method in H.
  destruct (valid_class_name cls) as [r|e] eqn:Ev; [|discriminate].
  destruct (valid_class_name_plain cls r Ev) as (segs & Hne & Hp & ->).
  pose proof (rel_ends_noslash segs Hne Hp) as Hrel. set (dir := py_join out (rel segs)) in *.
  assert (Hdir : ends_noslash dir) by apply ends_noslash_py_join, Hrel.
  destruct (clean_file_name _ fs _ true [USCORE]) as [filename|e] eqn:Ec; [|discriminate].
  apply clean_file_name_shape in Ec as (base & -> & Hbase); [|reflexivity]. apply okc_noslash in Hbase.
  rewrite py_split_join in H by (apply unslash_noslash || (right; right; exact Hdir)). cbn [fst] in H.
  assert (Hdirin : inside out dir) by (exists segs; auto).
  assert (Hag : inside out (py_join dir base ++ EXT_AG)).
  { rewrite py_join_adds_slash by assumption. unfold dir. rewrite <- !app_assoc, <- py_join_app by (now destruct Hrel as ([|] & ? & -> & _)).
    rewrite <- rel_snoc by exact Hne. apply inside_last; (assumption || discriminate || now repeat constructor). }
  assert (Hjava : inside out (py_join out (rel segs ++ EXT_JAVA))).
  { destruct (exists_last Hne) as (init & l & ->). rewrite rel_last_app. apply Forall_app in Hp as [Hi Hl]. apply Forall_inv in Hl.
    apply inside_last; (assumption || discriminate || (now repeat constructor) || apply Hl). }
  destruct (existsb _ dumped); injection H as <- _ _; repeat constructor; assumption.
Qed.

Theorem export_all_inside : forall ms fs dumped out tr e,
  export_all fs dumped out ms = (tr, e) -> Forall (created_inside out) tr.
Proof.
  induction ms as [|[cls short] rest IH]; intros fs dumped out tr e H; cbn [export_all] in H; [injection H as <- _; constructor|].
  destruct (export_method fs dumped out cls short) as [[[tr1 fs'] d']|x] eqn:Em; [|injection H as <- _; constructor].
  destruct (export_all fs' d' out rest) as [tr2 e2] eqn:Er. injection H as <- _.
  apply Forall_app. split; [eapply export_method_inside, Em | eapply IH, Er].
Qed.
