(* C35 - the loops of coq/Misc/TermModel.v (and the string reader of coq/Dex/StringsModel.v) end within a number of
   iterations that is linear in the number of bytes: the fuel they are given is never exhausted *)
From Coq Require Import ZArith List Bool Lia ZifyBool.
Require Import V.Lib.Val V.Lib.Result V.Lib.Reader V.Dex.LebModel V.Misc.TermModel V.Dex.StringsModel V.Dex.StringsProofs.
Import ListNotations.
Open Scope Z_scope.

Section Readers.
  Variable oof : Prop.
  Lemma get_byte_reads l : reads oof 1 (get_byte l) l.
  Proof. destruct l as [|b l]; [apply reads_err; discriminate | apply reads_ok, le_n]. Qed.
  Lemma read_u_reads l : reads oof 1 (read_u l) l.
  Proof.
    unfold read_u. apply reads_then; [apply get_byte_reads|]. intros b0 r0 _.
    (* up to four more bytes, each read while the one before has its high bit set *)
    do 4 (destruct (_ >? 127); [eapply reads_next; [apply get_byte_reads|]; intros ? ? _ | apply reads_ret]). apply reads_ret.
  Qed.
  Lemma read_up1_reads l : reads oof 1 (read_up1 l) l.
  Proof. unfold read_up1. apply reads_then; [apply read_u_reads|]. intros v r _. apply reads_ret. Qed.
  Lemma read_s_loop_reads : forall n res sh l, reads oof (Nat.min 1 n) (read_s_loop n res sh l) l.
  Proof.
    induction n as [|n IH]; intros res sh l; cbn [read_s_loop]; [apply reads_ret|].
    apply reads_then; [apply get_byte_reads|]. intros b r _.
    destruct (Z.land b 128 =? 0); [apply reads_ret | eapply reads_weaken; [apply IH | auto | lia]].
  Qed.
  Lemma read_s_reads l : reads oof 1 (read_s l) l.
  Proof. exact (read_s_loop_reads 5 0 0 l). Qed.
  Lemma u32_reads l : reads oof 4 (u32 l) l.
  Proof. destruct l as [|a [|b [|c [|d l]]]]; try (apply reads_err; discriminate). apply reads_ok, le_n. Qed.
  Lemma dbg_args_reads op l : reads oof 0 (dbg_args op l) l.
  Proof.
    unfold dbg_args. repeat match goal with |- reads _ _ (if ?c then _ else _) _ => destruct c end;
      (* whatever the opcode, a sequence of at most four reads *)
      eauto 12 using reads_next, reads_ret, read_u_reads, read_up1_reads, read_s_reads.
  Qed.
End Readers.

Lemma params_fuel : forall fuel n l, (length l < fuel)%nat -> params fuel n l <> Err OutOfFuel.
Proof.
  induction fuel as [|f IH]; intros n l Hf; [lia|]. cbn [params]. destruct (n <=? 0); [discriminate|].
  eapply reads_bind_noo; [apply read_up1_reads|]. intros v r Hr.
  apply bind_noo; [apply IH; lia|]. intros [vs r']. discriminate.
Qed.
Lemma dbg_loop_fuel : forall fuel op l, (length l < fuel)%nat -> dbg_loop fuel op l <> Err OutOfFuel.
Proof.
  induction fuel as [|f IH]; intros op l Hf; [lia|]. cbn [dbg_loop]. destruct (op =? 0); [discriminate|].
  eapply reads_bind_noo; [apply dbg_args_reads|]. intros a r1 H1.
  eapply reads_bind_noo; [apply get_byte_reads|]. intros op' r2 H2.
  apply bind_noo; [apply IH; lia|]. intros [rest r3]. discriminate.
Qed.
Theorem debug_info_ends l : debug_info l <> Err OutOfFuel.
Proof.
  unfold debug_info.
  eapply reads_bind_noo; [apply read_u_reads|]. intros line r1 _. eapply reads_bind_noo; [apply read_u_reads|]. intros np r2 _.
  apply bind_noo; [apply params_fuel; lia|]. intros [ps r3]. eapply reads_bind_noo; [apply get_byte_reads|]. intros op r4 _.
  apply bind_noo; [apply dbg_loop_fuel; lia|]. intros [codes r5]. discriminate.
Qed.

Lemma offsets_loop_fuel : forall fuel section i osize l, (length l < fuel)%nat -> offsets_loop fuel section i osize l <> Err OutOfFuel.
Proof.
  induction fuel as [|f IH]; intros section i osize l Hf; [lia|]. cbn [offsets_loop].
  destruct (negb (4 + 4 * i <? section)); [discriminate|]. destruct (negb (osize =? 0) && (osize <=? i)); [discriminate|].
  eapply reads_bind_noo; [apply u32_reads|]. intros off r Hr. apply IH. lia.
Qed.
Lemma flags_loop_fuel : forall fuel n l, (length l < fuel)%nat -> flags_loop fuel n l <> Err OutOfFuel.
Proof.
  induction fuel as [|f IH]; intros n l Hf; [lia|]. cbn [flags_loop]. destruct (n <=? 0); [discriminate|].
  eapply reads_bind_noo; [apply read_u_reads|]. intros fl r Hr.
  destruct ((6 <? Z.land fl 7) || (2 <? Z.shiftr fl 3)); [discriminate|].
  apply bind_noo; [apply IH; lia|]. intros [rest r']. discriminate.
Qed.
Theorem hidden_api_ends l : hidden_api l <> Err OutOfFuel.
Proof.
  unfold hidden_api.
  eapply reads_bind_noo; [apply u32_reads|]. intros section r1 _. apply bind_noo; [apply offsets_loop_fuel; lia|]. intros [osize r2].
  apply bind_noo; [apply flags_loop_fuel; lia|]. intros [fl r3]. discriminate.
Qed.

Lemma dropz_len : forall l n, 0 <= n -> len (dropz n l) = Z.max 0 (len l - n).
Proof.
  unfold len. induction l as [|x l IH]; intros n Hn; cbn [dropz length]; [lia|].
  destruct (n <=? 0) eqn:E; [cbn [length]; lia|]. rewrite IH by lia. lia.
Qed.
Lemma hdr_some l t : hdr l = Some t -> 8 <= len l.
Proof. unfold hdr, len. destruct l as [|a [|b [|c [|d [|e [|f [|g [|h r]]]]]]]]; try discriminate. intros _. cbn [length]. lia. Qed.
Lemma arsc_loop_fuel : forall fuel buf cur, 0 <= cur -> (Z.to_nat (len buf - cur) < fuel)%nat -> arsc_loop fuel buf cur <> Err OutOfFuel.
Proof.
  induction fuel as [|f IH]; intros buf cur Hc Hf; [lia|]. cbn [arsc_loop].
  destruct (hdr (dropz cur buf)) as [[[ty hs] sz]|] eqn:E; [|discriminate].
  apply hdr_some in E. rewrite dropz_len in E by exact Hc.
  match goal with |- (if ?c then _ else _) <> _ => destruct c end; [discriminate|]. apply IH; lia.
Qed.
Theorem arsc_header_ends buf start expected : 0 <= start -> arsc_header buf start expected <> Err OutOfFuel.
Proof.
  intros Hs. unfold arsc_header. destruct (len buf <? start + 8); [discriminate|].
  apply bind_noo; [apply arsc_loop_fuel; [exact Hs | unfold arsc_fuel; lia]|]. intros [[[ty hs] sz] cur].
  repeat match goal with |- (if ?c then _ else _) <> _ => destruct c; [discriminate|] end. discriminate.
Qed.
(* a header that is accepted makes the chunk loop advance: the chunk ends at least eight bytes after its start *)
Theorem arsc_header_progress buf start expected ty hs sz st pos :
  arsc_header buf start expected = Ok [ty; hs; sz; st; pos] -> st = start /\ start + 8 <= st + sz.
Proof.
  unfold arsc_header. destruct (len buf <? start + 8); [discriminate|].
  destruct (arsc_loop (arsc_fuel buf start) buf start) as [[[[ty' hs'] sz'] cur]|e]; cbn [bind]; [|discriminate].
  destruct (negb (expected =? 0) && negb (ty' =? expected)); [discriminate|].
  destruct (hs' <? 8); [discriminate|]. destruct (sz' <? 8) eqn:E2; [discriminate|]. destruct (sz' <? hs'); [discriminate|].
  intros [= _ _ -> -> _]. lia.
Qed.

Theorem read_nts_ends rest pos : read_nts rest pos <> Err OutOfFuel.
Proof. rewrite read_nts_spec. unfold nts_spec. destruct (has0 rest); discriminate. Qed.
