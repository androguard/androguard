(* Decimal and hexadecimal rendering of integers ('%d', '%X', '%08X', '%f' of an exact fraction) with the
   parsing functions that say what a rendered text denotes, and the lemmas relating the two. *)
From Coq Require Import ZArith List Bool Lia.
Import ListNotations.
Open Scope Z_scope.
Ltac Zify.zify_post_hook ::= Z.to_euclidean_division_equations.

(* digits in a base 2..16, most significant first *)
Definition digit_char (upper : bool) (d : Z) : Z :=
  if d <? 10 then 48 + d else (if upper then 55 else 87) + d.
Fixpoint digits_aux (fuel : nat) (base k : Z) : list Z :=
  match fuel with
  | O => [k mod base]
  | S f => if k <? base then [k] else digits_aux f base (k / base) ++ [k mod base]
  end.
(* fuel log2 k is enough for every base >= 2 *)
Definition digits (base k : Z) : list Z := digits_aux (Z.to_nat (Z.log2 k)) base k.
Definition dvalue (base : Z) (l : list Z) : Z := fold_left (fun a d => a * base + d) l 0.

Definition dec (k : Z) : list Z := map (digit_char false) (digits 10 k).              (* '%d' % k, k >= 0 *)
Definition hexU (k : Z) : list Z := map (digit_char true) (digits 16 k).              (* '%X' % k *)
Definition pad0 (n : nat) (s : list Z) : list Z := repeat 48 (n - length s) ++ s.
Definition hex8 (k : Z) : list Z := pad0 8 (hexU k).                                   (* '%08X' % k *)
Definition hex2 (k : Z) : list Z := pad0 2 (hexU k).                                   (* '%02X' % k *)
Definition sdec (k : Z) : list Z := if k <? 0 then 45 :: dec (- k) else dec k.         (* '%d' % k *)

Lemma dvalue_snoc : forall b q d, dvalue b (q ++ [d]) = dvalue b q * b + d.
Proof. intros. unfold dvalue. rewrite fold_left_app. reflexivity. Qed.

Lemma digits_aux_val : forall b f k, 2 <= b -> 0 <= k < b ^ (Z.of_nat f + 1) -> dvalue b (digits_aux f b k) = k.
Proof.
  intros b. induction f as [|f IH]; intros k Hb Hk; cbn [digits_aux].
  - change (Z.of_nat 0 + 1) with 1 in Hk. rewrite Z.pow_1_r in Hk. unfold dvalue. cbn [fold_left]. rewrite Z.mod_small by lia. lia.
  - destruct (k <? b) eqn:E; [unfold dvalue; cbn [fold_left]; lia|].
    rewrite dvalue_snoc, IH; [rewrite Z.mul_comm; symmetry; apply Z.div_mod; lia|assumption|].
    replace (Z.of_nat (S f) + 1) with (Z.succ (Z.of_nat f + 1)) in Hk by lia.
    rewrite Z.pow_succ_r in Hk by lia. split; [apply Z.div_pos; lia|]. apply Z.div_lt_upper_bound; lia.
Qed.
Lemma digits_val : forall b k, 2 <= b -> 0 <= k -> dvalue b (digits b k) = k.
Proof.
  intros b k Hb Hk. unfold digits. apply digits_aux_val; [assumption|]. split; [assumption|].
  destruct (Z.eq_dec k 0) as [->|Hn]; [apply Z.pow_pos_nonneg; lia|].
  rewrite Z2Nat.id by apply Z.log2_nonneg.
  pose proof (Z.log2_spec k ltac:(lia)) as [_ H]. eapply Z.lt_le_trans; [exact H|].
  replace (Z.succ (Z.log2 k)) with (Z.log2 k + 1) by lia.
  apply Z.pow_le_mono_l. pose proof (Z.log2_nonneg k). lia.
Qed.
Lemma digits_aux_range : forall b f k, 2 <= b -> 0 <= k -> Forall (fun d => 0 <= d < b) (digits_aux f b k).
Proof.
  intros b. induction f as [|f IH]; intros k Hb Hk; cbn [digits_aux].
  - constructor; [|constructor]. apply Z.mod_pos_bound. lia.
  - destruct (k <? b) eqn:E; [constructor; [lia|constructor]|].
    apply Forall_app. split; [apply IH; [assumption|apply Z.div_pos; lia]|].
    constructor; [|constructor]. apply Z.mod_pos_bound. lia.
Qed.
Lemma digits_range : forall b k, 2 <= b -> 0 <= k -> Forall (fun d => 0 <= d < b) (digits b k).
Proof. intros. apply digits_aux_range; assumption. Qed.
Lemma digits_aux_len : forall b f k, (1 <= length (digits_aux f b k) <= S f)%nat.
Proof.
  intros b. induction f as [|f IH]; intros k; cbn [digits_aux]; [simpl; lia|].
  destruct (k <? b); [simpl; lia|]. rewrite app_length. specialize (IH (k / b)). simpl length. lia.
Qed.
Lemma digits_aux_len_bound : forall b f k n, 2 <= b -> 0 <= k < b ^ Z.of_nat n -> (1 <= n)%nat ->
  (length (digits_aux f b k) <= n)%nat.
Proof.
  intros b. induction f as [|f IH]; intros k n Hb Hk Hn; cbn [digits_aux]; [simpl; lia|].
  destruct (k <? b) eqn:E; [simpl; lia|]. rewrite app_length. simpl length.
  destruct n as [|[|n]]; [lia| |].
  - change (Z.of_nat 1) with 1 in Hk. rewrite Z.pow_1_r in Hk. lia.
  - assert ((length (digits_aux f b (k / b)) <= S n)%nat); [|lia]. apply IH; [assumption| |lia].
    replace (Z.of_nat (S (S n))) with (Z.succ (Z.of_nat (S n))) in Hk by lia. rewrite Z.pow_succ_r in Hk by lia.
    split; [apply Z.div_pos; lia|]. apply Z.div_lt_upper_bound; lia.
Qed.

Definition char_digit (c : Z) : Z :=
  if (48 <=? c) && (c <=? 57) then c - 48 else if (65 <=? c) && (c <=? 70) then c - 55
  else if (97 <=? c) && (c <=? 102) then c - 87 else -1.
Definition text_value (base : Z) (s : list Z) : Z := dvalue base (map char_digit s).

Lemma between_true lo hi x : lo <= x <= hi -> (lo <=? x) && (x <=? hi) = true.
Proof. intros H. apply andb_true_iff. split; apply Z.leb_le; lia. Qed.
Lemma between_false lo hi x : x < lo \/ hi < x -> (lo <=? x) && (x <=? hi) = false.
Proof. intros H. apply andb_false_iff. rewrite !Z.leb_gt. lia. Qed.
Lemma char_digit_char : forall u d, 0 <= d < 16 -> char_digit (digit_char u d) = d.
Proof.
  intros u d Hd. unfold digit_char, char_digit. destruct (Z.ltb_spec d 10); [rewrite between_true by lia; lia|]. destruct u.
  - rewrite (between_false 48 57), (between_true 65 70) by lia. lia.
  - rewrite (between_false 48 57), (between_false 65 70), (between_true 97 102) by lia. lia.
Qed.
Lemma map_char_digit : forall u b l, 2 <= b <= 16 -> Forall (fun d => 0 <= d < b) l ->
  map char_digit (map (digit_char u) l) = l.
Proof.
  intros u b l Hb H. induction H as [|d l Hd Hl IH]; simpl; [reflexivity|]. rewrite char_digit_char by lia. now rewrite IH.
Qed.
Lemma dvalue_zeros : forall b n l, dvalue b (repeat 0 n ++ l) = dvalue b l.
Proof.
  intros b n l. unfold dvalue. rewrite fold_left_app. f_equal. induction n as [|n IH]; simpl; [reflexivity|]. exact IH.
Qed.

Lemma map_repeat_ : forall (f : Z -> Z) x n, map f (repeat x n) = repeat (f x) n.
Proof. induction n as [|n IH]; simpl; [reflexivity|now rewrite IH]. Qed.

Lemma digits_text : forall u b k, 2 <= b <= 16 -> 0 <= k -> text_value b (map (digit_char u) (digits b k)) = k.
Proof. intros u b k Hb Hk. unfold text_value. rewrite (map_char_digit u b) by (try apply digits_range; lia). apply digits_val; lia. Qed.
Lemma text_value_pad0 : forall b n s, text_value b (pad0 n s) = text_value b s.
Proof. intros b n s. unfold text_value, pad0. rewrite map_app, map_repeat_. apply (dvalue_zeros b). Qed.

Theorem dec_value : forall k, 0 <= k -> text_value 10 (dec k) = k.
Proof. intros k Hk. apply digits_text; lia. Qed.
Theorem hex8_value : forall k, 0 <= k -> text_value 16 (hex8 k) = k.
Proof. intros k Hk. unfold hex8. rewrite text_value_pad0. apply digits_text; lia. Qed.
Lemma pad0_length : forall n s, (length s <= n)%nat -> length (pad0 n s) = n.
Proof. intros n s H. unfold pad0. rewrite app_length, repeat_length. lia. Qed.
Theorem hex8_length : forall k, 0 <= k < 2 ^ 32 -> length (hex8 k) = 8%nat.
Proof.
  intros k Hk. apply pad0_length. unfold hexU, digits. rewrite map_length.
  apply digits_aux_len_bound; [lia | exact Hk | lia].
Qed.
Theorem sdec_value : forall k, (if k <? 0 then match sdec k with 45 :: t => - text_value 10 t | _ => 0 end
                                else text_value 10 (sdec k)) = k.
Proof.
  intros k. unfold sdec. destruct (k <? 0) eqn:E; [rewrite dec_value by lia; lia|apply dec_value; lia].
Qed.
