(* Facts about lists, about the list functions of Lib/Val.v that several models share under names of their own, and
   about the small list functions that several models define word for word. *)
From Coq Require Import ZArith List Bool Lia Permutation.
Require Import V.Lib.Val.
Import ListNotations.
Open Scope Z_scope.

(* [list_eqb Z.eqb] is str_eqb, row_eqb, bytes_eqb, name_eqb of the models *)
Lemma list_eqb_Z_eq : forall a b, list_eqb Z.eqb a b = true <-> a = b.
Proof.
  induction a as [|x a IH]; intros [|y b]; cbn [list_eqb]; try (split; discriminate); [tauto|].
  rewrite andb_true_iff, Z.eqb_eq, IH. split; [intros [-> ->]; reflexivity | intros [= -> ->]; tauto].
Qed.

(* [starts_with] of FilesModel, CleanNameModel, TypeNameModel and AxmlModel are this function text for text. *)
Fixpoint is_prefix (p s : list Z) : bool :=
  match p, s with
  | [], _ => true
  | a :: p', b :: s' => (a =? b) && is_prefix p' s'
  | _ :: _, [] => false
  end.

Lemma is_prefix_spec : forall p s, is_prefix p s = true <-> exists r, s = p ++ r.
Proof.
  induction p as [|a p IH]; intros s; cbn [is_prefix app]; [split; [now exists s | reflexivity]|].
  destruct s as [|b s]; [split; [discriminate | now intros [r H]]|].
  rewrite andb_true_iff, IH, Z.eqb_eq. split; [intros [-> [r ->]]; now exists r | intros [r [= -> ->]]; eauto].
Qed.

(* membership by a boolean equality: at Z.eqb it is memZ, memz, has and the mem of OrderModel and ShortCircuitDriver, at list_eqb Z.eqb it is isfile
   and the test of dedup *)
Section Membership.
  Context {A : Type} (eqb : A -> A -> bool) (eqb_eq : forall a b, eqb a b = true <-> a = b).
  Lemma existsb_In x l : existsb (eqb x) l = true <-> In x l.
  Proof.
    rewrite existsb_exists. split.
    - intros (y & Hy & E). apply eqb_eq in E. now subst.
    - intros H. exists x. split; [exact H | now apply eqb_eq].
  Qed.
  Lemma existsb_nIn x l : existsb (eqb x) l = false <-> ~ In x l.
  Proof. rewrite <- existsb_In. symmetry. apply not_true_iff_false. Qed.
End Membership.

Lemma existsb_eqb_In x l : existsb (Z.eqb x) l = true <-> In x l.
Proof. exact (existsb_In Z.eqb Z.eqb_eq x l). Qed.
Lemma existsb_eqb_nIn x l : existsb (Z.eqb x) l = false <-> ~ In x l.
Proof. exact (existsb_nIn Z.eqb Z.eqb_eq x l). Qed.
Lemma existsb_list_eqb_In x l : existsb (list_eqb Z.eqb x) l = true <-> In x l.
Proof. exact (existsb_In _ list_eqb_Z_eq x l). Qed.
Lemma existsb_list_eqb_nIn x l : existsb (list_eqb Z.eqb x) l = false <-> ~ In x l.
Proof. exact (existsb_nIn _ list_eqb_Z_eq x l). Qed.

(* [upd] of ReachDefModel and of RenameModel are this function text for text, hence convertible with it: the lemmas
   apply to them as they stand. *)
Fixpoint set_nth {A} (l : list A) (i : nat) (x : A) : list A :=
  match l, i with [], _ => [] | _ :: r, O => x :: r | y :: r, S k => y :: set_nth r k x end.

Lemma set_nth_length {A} (l : list A) i x : length (set_nth l i x) = length l.
Proof. revert i; induction l as [|y l IH]; intros [|i]; cbn [set_nth length]; auto. Qed.
Lemma nth_set_nth_same {A} (l : list A) i x d : (i < length l)%nat -> nth i (set_nth l i x) d = x.
Proof. revert i; induction l as [|y l IH]; intros [|i] H; cbn [length] in H; try lia; cbn [set_nth nth]; [reflexivity | apply IH; lia]. Qed.
Lemma nth_set_nth_other {A} (l : list A) i j x d : i <> j -> nth j (set_nth l i x) d = nth j l d.
Proof. revert i j; induction l as [|y l IH]; intros [|i] [|j] H; cbn [set_nth nth]; try reflexivity; try lia. apply IH. lia. Qed.

Lemma Forall_firstn_skipn {A} {P : A -> Prop} n {l} : Forall P l -> Forall P (firstn n l) /\ Forall P (skipn n l).
Proof. intros H. apply Forall_app. rewrite firstn_skipn. exact H. Qed.
Lemma firstn_length_app {A} (a b : list A) : firstn (length a) (a ++ b) = a.
Proof. induction a as [|x a IH]; cbn [length app firstn]; [destruct b; reflexivity | now rewrite IH]. Qed.
Lemma skipn_length_app {A} (a b : list A) : skipn (length a) (a ++ b) = b.
Proof. induction a as [|x a IH]; [reflexivity | exact IH]. Qed.

Lemma filter_true {A} (l : list A) : filter (fun _ => true) l = l.
Proof. induction l as [|a l IH]; cbn [filter]; congruence. Qed.
Lemma filter_nil {A} (p : A -> bool) l : (forall x, In x l -> p x = false) -> filter p l = [].
Proof.
  induction l as [|a l IH]; intros H; [reflexivity|]. cbn [filter].
  rewrite (H a (or_introl eq_refl)). apply IH. intros x Hx. apply H. right. exact Hx.
Qed.
Lemma filter_length_mono {A} (p q : A -> bool) l :
  (forall x, In x l -> p x = true -> q x = true) -> (length (filter p l) <= length (filter q l))%nat.
Proof.
  induction l as [|a l IH]; intros H; [apply le_n|]. cbn [filter].
  specialize (IH (fun x Hx => H x (or_intror Hx))).
  destruct (p a) eqn:Pa; [rewrite (H a (or_introl eq_refl) Pa) | destruct (q a)]; cbn [length]; lia.
Qed.
Lemma filter_length_mono_lt {A} {p q : A -> bool} l a :
  (forall x, In x l -> p x = true -> q x = true) -> In a l -> p a = false -> q a = true ->
  (length (filter p l) < length (filter q l))%nat.
Proof.
  intros H Ha Pa Qa. apply in_split in Ha as (l1 & l2 & ->).
  rewrite !filter_app, !app_length. cbn [filter]. rewrite Pa, Qa. cbn [length].
  assert (length (filter p l1) <= length (filter q l1) /\ length (filter p l2) <= length (filter q l2))%nat; [|lia].
  split; apply filter_length_mono; intros x Hx; apply H, in_or_app; cbn [In]; auto.
Qed.
Lemma filter_length_le {A} (p : A -> bool) l : (length (filter p l) <= length l)%nat.
Proof. rewrite <- (filter_true l) at 2. now apply filter_length_mono. Qed.
Lemma filter_length_lt {A} {p : A -> bool} {l x} : In x l -> p x = false -> (length (filter p l) < length l)%nat.
Proof. intros Hx Px. rewrite <- (filter_true l) at 2. now apply (filter_length_mono_lt l x). Qed.

Lemma filter_rev {A} (p : A -> bool) l : filter p (rev l) = rev (filter p l).
Proof. induction l as [|x l IH]; [reflexivity|]. cbn [rev filter]. rewrite filter_app, IH. cbn [filter]. destruct (p x); [reflexivity | apply app_nil_r]. Qed.

(* a fold that keeps one of its two arguments, and what it keeps bounds both: max and min *)
Lemma fold_select {A} (op : A -> A -> A) (le : A -> A -> Prop) :
  (forall a b, (op a b = a \/ op a b = b) /\ le a (op a b) /\ le b (op a b)) ->
  (forall a, le a a) -> (forall a b c, le a b -> le b c -> le a c) ->
  forall l x, In (fold_left op l x) (x :: l) /\ forall y, In y (x :: l) -> le y (fold_left op l x).
Proof.
  intros Hop Hrf Htr. induction l as [|a l IH]; intros x; cbn [fold_left].
  - split; [left; reflexivity | intros y [<-|[]]; apply Hrf].
  - destruct (IH (op x a)) as [I B], (Hop x a) as (Hs & Hx & Ha). pose proof (B _ (or_introl eq_refl)) as Hm. split.
    + destruct I as [I|I]; [|right; right; exact I]. rewrite <- I. destruct Hs as [-> | ->]; [left | right; left]; reflexivity.
    + intros y [<-|[<-|Hy]]; [exact (Htr _ _ _ Hx Hm) | exact (Htr _ _ _ Ha Hm) | apply B; right; exact Hy].
Qed.
Lemma fold_max_spec l x : In (fold_left Z.max l x) (x :: l) /\ forall y, In y (x :: l) -> y <= fold_left Z.max l x.
Proof. revert l x. apply (fold_select Z.max Z.le); intros; lia. Qed.
Lemma fold_min_spec l x : In (fold_left Z.min l x) (x :: l) /\ forall y, In y (x :: l) -> fold_left Z.min l x <= y.
Proof. revert l x. apply (fold_select Z.min (fun a b => b <= a)); intros; lia. Qed.

Lemma existsb_perm {A} (f : A -> bool) {l l'} : Permutation l l' -> existsb f l = existsb f l'.
Proof. induction 1; cbn [existsb]; try congruence. destruct (f x), (f y); reflexivity. Qed.
Lemma forallb_perm {A} (f : A -> bool) {l l'} : Permutation l l' -> forallb f l = forallb f l'.
Proof. induction 1; cbn [forallb]; try congruence. destruct (f x), (f y); reflexivity. Qed.

Lemma NoDup_app_r {A} (a b : list A) : NoDup (a ++ b) -> NoDup b.
Proof. induction a as [|x a IH]; cbn [app]; [auto|]. intros H. inversion H; subst. now apply IH. Qed.
Lemma NoDup_app_l {A} (a b : list A) : NoDup (a ++ b) -> NoDup a.
Proof.
  induction a as [|x a IH]; cbn [app]; [constructor|]. intros H. inversion H as [|? ? Hx Hn]; subst.
  constructor; [|now apply IH]. intros X. apply Hx, in_or_app. now left.
Qed.
Lemma NoDup_map_inj {A B} (f : A -> B) l {a b} : NoDup (map f l) -> In a l -> In b l -> f a = f b -> a = b.
Proof.
  induction l as [|c l IH]; [contradiction|]. cbn [map]. intros Hnd Ha Hb E. inversion Hnd as [|? ? Hn Hnd']; subst.
  destruct Ha as [->|Ha], Hb as [->|Hb]; [reflexivity | | | now apply IH]; exfalso; apply Hn; [rewrite E | rewrite <- E]; now apply in_map.
Qed.
Lemma NoDup_map_via {A B C} (f : A -> B) (g : A -> C) l :
  (forall x y, In x l -> In y l -> g x = g y -> f x = f y) -> NoDup (map f l) -> NoDup (map g l).
Proof.
  induction l as [|a l IH]; cbn [map]; intros H Hnd; [constructor|]. inversion Hnd as [|? ? Hn Hnd']; subst. constructor.
  - intros Hin. apply in_map_iff in Hin as (b & E & Hb). apply Hn. rewrite <- (H b a) by (cbn; auto). now apply in_map.
  - apply IH; [|exact Hnd']. intros x y Hx Hy. apply H; now right.
Qed.
Lemma NoDup_map_left_inverse {A B} (f : A -> B) (g : B -> A) l : (forall x, In x l -> g (f x) = x) -> NoDup l -> NoDup (map f l).
Proof.
  intros H ND. induction ND as [|a l Ha ND IH]; cbn [map]; constructor.
  - intros I. apply in_map_iff in I as (j & Ej & Hj). apply Ha. rewrite <- (H a), <- Ej, H; [exact Hj | right; exact Hj | left; reflexivity].
  - apply IH. intros x Hx. apply H. right. exact Hx.
Qed.
