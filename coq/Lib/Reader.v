(* What a reader - a function from the bytes in front of it to a value and the bytes it leaves, or an error - may come
   to, and how that goes through bind.  The termination proofs of the fuelled readers (C35) are put in these terms;
   the chunk loops of the binary XML and resource table parsers use the two lemmas about bind only. *)
From Coq Require Import ZArith List Lia.
Require Import V.Lib.Result.
Local Open Scope nat_scope.

Section Bind.
  Context {A B : Type} (x : result A) (f : A -> result B).
  Lemma bind_noo_eq : x <> Err OutOfFuel -> (forall a, x = Ok a -> f a <> Err OutOfFuel) -> bind x f <> Err OutOfFuel.
  Proof. destruct x as [a|e]; cbn [bind]; [intros _ F; exact (F a eq_refl) | intros N _ [= ->]; exact (N eq_refl)]. Qed.
  Lemma bind_noo : x <> Err OutOfFuel -> (forall a, f a <> Err OutOfFuel) -> bind x f <> Err OutOfFuel.
  Proof. intros N F. apply bind_noo_eq; [exact N | intros a _; apply F]. Qed.
End Bind.

(* x, the outcome of a reader, leaves at least n bytes fewer than l has, or it fails - for want of fuel only where that is
   allowed (oof).  With oof = False this is "never out of fuel, and progress"; with oof = True it is progress alone, which
   holds whatever fuel a nested loop was given.  (n + length r, so that n = 1 reads length r < length l.) *)
Definition reads {A} (oof : Prop) (n : nat) (x : result (A * list Z)) (l : list Z) : Prop :=
  match x with Ok (_, r) => n + length r <= length l | Err e => e = OutOfFuel -> oof end.

Section Reads.
  Context {A : Type} (oof : Prop).
  Implicit Types (x : result (A * list Z)) (l r : list Z).

  Lemma reads_ok n (v : A) r l : n + length r <= length l -> reads oof n (Ok (v, r)) l.
  Proof. exact (fun H => H). Qed.
  Lemma reads_ret (v : A) l : reads oof 0 (Ok (v, l)) l.
  Proof. exact (le_n _). Qed.
  Lemma reads_err n e l : (e = OutOfFuel -> oof) -> reads oof n (@Err (A * list Z) e) l.
  Proof. exact (fun H => H). Qed.
  Lemma reads_intro n x l : x <> Err OutOfFuel -> (forall v r, x = Ok (v, r) -> n + length r <= length l) -> reads oof n x l.
  Proof. intros N S. destruct x as [[v r]|e]; [exact (S v r eq_refl) | intros ->; destruct (N eq_refl)]. Qed.
  Lemma reads_le n x l v r : reads oof n x l -> x = Ok (v, r) -> n + length r <= length l.
  Proof. intros R ->. exact R. Qed.
  (* less is claimed: fuel may be what ends it, fewer bytes are said to be taken, or they are counted from a longer list *)
  Lemma reads_weaken (oof' : Prop) n' l' n x l : reads oof' n' x l' -> (oof' -> oof) -> n + length l' <= n' + length l -> reads oof n x l.
  Proof. intros R O H. destruct x as [[v r]|e]; cbn [reads] in *; [lia | auto]. Qed.
End Reads.
Arguments reads_intro {A oof} n {x l} _ _.
Arguments reads_le {A oof n x l v r} _ _.

Section ReadsBind.
  Context {A B : Type} (oof : Prop) (x : result (A * list Z)) (k : A -> list Z -> result (B * list Z)).
  (* what follows a read starts from what the read left; in general its bytes may be counted from any list ... *)
  Lemma reads_bind n l' m l :
    reads oof n x l' -> (forall v r, n + length r <= length l' -> reads oof m (k v r) l) -> reads oof m (do '(v, r) <- x; k v r) l.
  Proof. destruct x as [[v r]|e]; cbn [reads bind]; auto. Qed.
  (* ... but mostly from where it starts: then the whole takes what its first read takes *)
  Lemma reads_then n l :
    reads oof n x l -> (forall v r, n + length r <= length l -> reads oof 0 (k v r) r) -> reads oof n (do '(v, r) <- x; k v r) l.
  Proof.
    intros X K. apply (reads_bind n l); [exact X|]. intros v r H. apply (reads_weaken oof oof 0 r); [exact (K v r H) | auto | lia].
  Qed.
  Lemma reads_next n l :
    reads oof n x l -> (forall v r, n + length r <= length l -> reads oof 0 (k v r) r) -> reads oof 0 (do '(v, r) <- x; k v r) l.
  Proof. intros X K. apply (reads_weaken oof oof n l); [exact (reads_then n l X K) | auto | lia]. Qed.
End ReadsBind.

Section Noo.
  Context {A : Type} (n : nat) (x : result (A * list Z)) (l : list Z).
  Lemma reads_noo : reads False n x l -> x <> Err OutOfFuel.
  Proof. intros R ->. exact (R eq_refl). Qed.
  Lemma reads_facts : reads False n x l -> x <> Err OutOfFuel /\ forall v r, x = Ok (v, r) -> n + length r <= length l.
  Proof. intros R. split; [exact (reads_noo R) | intros v r; exact (reads_le R)]. Qed.
  (* the step where what follows is not a reader any more *)
  Lemma reads_bind_noo {B} (k : A -> list Z -> result B) :
    reads False n x l -> (forall v r, n + length r <= length l -> k v r <> Err OutOfFuel) -> (do '(v, r) <- x; k v r) <> Err OutOfFuel.
  Proof. destruct x as [[v r]|e]; cbn [reads bind]; [auto | intros R _ E; injection E as ->; exact (R eq_refl)]. Qed.
End Noo.
Arguments reads_noo {A n x l} _.
Arguments reads_facts {A n x l} _.
