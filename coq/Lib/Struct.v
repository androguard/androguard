(* Python's struct module for the little-endian integer formats B b H h I i L l Q q:
   unpack of a byte string of exactly the right size, pack with the range check that raises struct.error. *)
From Coq Require Import ZArith List Bool Lia ZifyBool.
Require Import V.Lib.Val V.Lib.Result V.Lib.ListFacts.
Import ListNotations.
Open Scope Z_scope.
Ltac Zify.zify_post_hook ::= Z.to_euclidean_division_equations.

Inductive fspec := FU (n : nat) | FS (n : nat).        (* unsigned / signed field of n bytes *)
Definition fsize (s : fspec) : nat := match s with FU n | FS n => n end.

Fixpoint lu (l : list Z) : Z := match l with [] => 0 | b :: t => b + 256 * lu t end.
Definition width (n : nat) : Z := 8 * Z.of_nat n.
Definition ls (l : list Z) : Z :=
  if 2 ^ (width (length l) - 1) <=? lu l then lu l - 2 ^ width (length l) else lu l.
Fixpoint lbytes (n : nat) (x : Z) : list Z := match n with O => [] | S n' => x mod 256 :: lbytes n' (x / 256) end.

Definition unpack_field (s : fspec) (bs : list Z) : Z := match s with FU _ => lu bs | FS _ => ls bs end.
Fixpoint unpack_go (specs : list fspec) (bs : list Z) : result (list Z) :=
  match specs with
  | [] => match bs with [] => Ok [] | _ => Err StructError end
  | s :: r =>
      if (length bs <? fsize s)%nat then Err StructError
      else match unpack_go r (skipn (fsize s) bs) with
           | Ok vs => Ok (unpack_field s (firstn (fsize s) bs) :: vs)
           | Err e => Err e
           end
  end.
Definition unpack (specs : list fspec) (bs : list Z) : result (list Z) := unpack_go specs bs.

Definition in_range (s : fspec) (v : Z) : bool :=
  match s with
  | FU n => (0 <=? v) && (v <? 2 ^ width n)
  | FS n => (- 2 ^ (width n - 1) <=? v) && (v <? 2 ^ (width n - 1))
  end.
Definition pack_field (s : fspec) (v : Z) : result (list Z) :=
  if in_range s v then Ok (lbytes (fsize s) (v mod 2 ^ width (fsize s))) else Err StructError.
Fixpoint pack (specs : list fspec) (vs : list Z) : result (list Z) :=
  match specs, vs with
  | [], [] => Ok []
  | s :: r, v :: t =>
      match pack_field s v with
      | Err e => Err e
      | Ok b => match pack r t with Ok bs => Ok (b ++ bs) | Err e => Err e end
      end
  | _, _ => Err StructError
  end.

Definition is_bytes (l : list Z) : Prop := Forall (fun b => 0 <= b < 256) l.
Lemma lu_range : forall l, is_bytes l -> 0 <= lu l < 2 ^ width (length l).
Proof.
  induction 1 as [|b l Hb Hl IH]; unfold width in *; cbn [lu length]; [simpl; lia|].
  replace (8 * Z.of_nat (S (length l))) with (8 + 8 * Z.of_nat (length l)) by lia.
  rewrite Z.pow_add_r by lia. change (2 ^ 8) with 256. lia.
Qed.
Lemma lu_nonneg : forall l, Forall (fun b => 0 <= b) l -> 0 <= lu l.
Proof. induction 1 as [|b l Hb Hl IH]; cbn [lu]; lia. Qed.
Lemma unpack_unsigned_nonneg {specs bs vs} i {n v} : Forall (fun b => 0 <= b) bs -> unpack specs bs = Ok vs ->
  nth_error specs i = Some (FU n) -> nth_error vs i = Some v -> 0 <= v.
Proof.
  unfold unpack. revert bs vs i. induction specs as [|s r IH]; intros bs vs i Hb H Hs Hv; [destruct i; discriminate|]. cbn [unpack_go] in H.
  destruct (length bs <? fsize s)%nat; [discriminate|]. destruct (unpack_go r (skipn (fsize s) bs)) as [vs'|] eqn:E; [|discriminate].
  injection H as <-. destruct (Forall_firstn_skipn (fsize s) Hb) as [Hf Hk]. destruct i as [|i]; cbn [nth_error] in Hs, Hv.
  - injection Hs as ->. injection Hv as <-. apply lu_nonneg, Hf.
  - exact (IH _ _ _ Hk E Hs Hv).
Qed.
Lemma lbytes_ok : forall n x, is_bytes (lbytes n x) /\ length (lbytes n x) = n.
Proof. induction n as [|n IH]; intros x; cbn [lbytes]; [split; [constructor|reflexivity]|].
  destruct (IH (x / 256)) as [H1 H2]. split; [constructor; [lia|exact H1]|cbn [length]; now rewrite H2]. Qed.
Lemma lbytes_lu : forall l, is_bytes l -> lbytes (length l) (lu l) = l.
Proof.
  induction 1 as [|b l Hb Hl IH]; [reflexivity|]. cbn [length lbytes lu]. f_equal; [lia|].
  replace ((b + 256 * lu l) / 256) with (lu l) by lia. exact IH.
Qed.
Lemma lu_lbytes : forall n x, 0 <= x < 2 ^ width n -> lu (lbytes n x) = x.
Proof.
  induction n as [|n IH]; intros x Hx; cbn [lbytes lu]; [unfold width in Hx; simpl in Hx; lia|].
  rewrite IH; [lia|]. unfold width in *. replace (8 * Z.of_nat (S n)) with (8 + 8 * Z.of_nat n) in Hx by lia.
  rewrite Z.pow_add_r in Hx by lia. change (2 ^ 8) with 256 in Hx. lia.
Qed.
Lemma pack_unpack_field : forall s bs, is_bytes bs -> length bs = fsize s -> (0 < fsize s)%nat ->
  pack_field s (unpack_field s bs) = Ok bs.
Proof.
  intros s bs Hb Hl Hp. pose proof (lu_range bs Hb) as Hr. rewrite Hl in Hr. unfold pack_field.
  set (W := width (fsize s)) in *. assert (HW : 8 <= W) by (unfold W, width; lia).
  assert (Hp2 : 2 ^ W = 2 * 2 ^ (W - 1)) by (rewrite <- Z.pow_succ_r by lia; f_equal; lia).
  (* the value is in range, and modulo 2 ^ W it is the unsigned reading of the bytes *)
  assert (E : in_range s (unpack_field s bs) = true /\ unpack_field s bs mod 2 ^ W = lu bs).
  { destruct s as [n|n]; cbn [fsize unpack_field in_range] in *; fold W; [|unfold ls; rewrite Hl; fold W; destruct (Z.leb_spec (2 ^ (W - 1)) (lu bs))];
      (split; [lia|]); [apply Z.mod_small; lia | symmetry; apply (Z.mod_unique_pos _ _ (-1)); lia | apply Z.mod_small; lia]. }
  destruct E as [-> ->]. rewrite <- Hl. now rewrite lbytes_lu.
Qed.

Lemma pack_unpack : forall specs bs vs, Forall (fun s => (0 < fsize s)%nat) specs -> is_bytes bs ->
  unpack specs bs = Ok vs -> pack specs vs = Ok bs.
Proof.
  unfold unpack. induction specs as [|s r IH]; intros bs vs Hp Hb H; cbn [unpack_go] in H.
  - destruct bs; [|discriminate]. injection H as <-. reflexivity.
  - inversion Hp as [|? ? Hs Hr]; subst. destruct (Nat.ltb_spec (length bs) (fsize s)) as [|Hl]; [discriminate|].
    destruct (unpack_go r (skipn (fsize s) bs)) as [vs'|] eqn:E; [|discriminate]. injection H as <-.
    destruct (Forall_firstn_skipn (fsize s) Hb) as [Hf Hk]. cbn [pack].
    rewrite pack_unpack_field, (IH _ _ Hr Hk E), firstn_skipn by (assumption || apply firstn_length_le, Hl). reflexivity.
Qed.
