(* Finite sweeps: decide a boolean predicate on every 8- or 16-bit value by computation and
   lift the result to a universally quantified statement.  Ranges are built as 256 x 256 so
   that no large [nat] literal is ever written. *)
From Coq Require Import ZArith List Bool Lia.
Import ListNotations.
Open Scope Z_scope.
Ltac Zify.zify_post_hook ::= Z.to_euclidean_division_equations.

Definition r256 : list Z := map Z.of_nat (seq 0 256).
Definition all8 (P : Z -> bool) : bool := forallb P r256.
Definition all16 (P : Z -> bool) : bool :=
  forallb (fun h => forallb (fun l => P (h * 256 + l)) r256) r256.

Lemma r256_in : forall x, 0 <= x < 256 -> In x r256.
Proof.
  intros x H. unfold r256. apply in_map_iff. exists (Z.to_nat x). split; [lia|].
  apply in_seq. lia.
Qed.

Lemma all8_spec : forall P, all8 P = true -> forall x, 0 <= x < 256 -> P x = true.
Proof.
  intros P H x Hx. unfold all8 in H. rewrite forallb_forall in H. apply H, r256_in, Hx.
Qed.

Lemma all16_spec : forall P, all16 P = true -> forall x, 0 <= x < 65536 -> P x = true.
Proof.
  intros P H x Hx. unfold all16 in H. rewrite forallb_forall in H.
  assert (Hh : In (x / 256) r256) by (apply r256_in; lia).
  specialize (H _ Hh). rewrite forallb_forall in H.
  assert (Hl : In (x mod 256) r256) by (apply r256_in; lia).
  specialize (H _ Hl). replace (x / 256 * 256 + x mod 256) with x in H by lia. exact H.
Qed.
