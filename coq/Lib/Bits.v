(* Bit operations with constant masks and shifts, as arithmetic. *)
From Coq Require Import ZArith Lia Bool.
Open Scope Z_scope.
(* From here on lia knows / and mod by constants.  The setting is global: it holds in every file that requires this one,
   directly or not (Struct.v, Fmt.v and Sweep.v set it too, and Dex/HeaderProofs.v, which imports none of them), and with it lia fails on some goals about
   booleans that it proves through ZifyBool without it (a && b = true -> b = true is one). *)
Ltac Zify.zify_post_hook ::= Z.to_euclidean_division_equations.

Lemma land_ones_mod x k : 0 <= k -> Z.land x (Z.ones k) = x mod 2 ^ k.
Proof. intros. apply Z.land_ones; lia. Qed.
Lemma land127 x : Z.land x 127 = x mod 128.
Proof. change 127 with (Z.ones 7). rewrite Z.land_ones by lia. reflexivity. Qed.
Lemma land15 x : Z.land x 15 = x mod 16.
Proof. change 15 with (Z.ones 4). rewrite Z.land_ones by lia. reflexivity. Qed.
Lemma land255 x : Z.land x 255 = x mod 256.
Proof. change 255 with (Z.ones 8). rewrite Z.land_ones by lia. reflexivity. Qed.
Lemma land_ffff x : Z.land x 65535 = x mod 65536.
Proof. change 65535 with (Z.ones 16). rewrite Z.land_ones by lia. reflexivity. Qed.
Lemma land_u32 x : Z.land x 4294967295 = x mod 4294967296.
Proof. change 4294967295 with (Z.ones 32). rewrite Z.land_ones by lia. reflexivity. Qed.
Lemma land_u31 x : Z.land 2147483647 x = x mod 2147483648.
Proof. rewrite Z.land_comm. change 2147483647 with (Z.ones 31). rewrite Z.land_ones by lia. reflexivity. Qed.
Lemma shr_div x k : 0 <= k -> Z.shiftr x k = x / 2 ^ k.
Proof. intros. apply Z.shiftr_div_pow2; lia. Qed.
Lemma shl_mul x k : 0 <= k -> Z.shiftl x k = x * 2 ^ k.
Proof. intros. apply Z.shiftl_mul_pow2; lia. Qed.
Lemma shr7 x : Z.shiftr x 7 = x / 128.
Proof. rewrite Z.shiftr_div_pow2 by lia. reflexivity. Qed.
Lemma land_shl_mask x m k : 0 <= k -> Z.land x (Z.shiftl m k) = Z.shiftl (Z.land (Z.shiftr x k) m) k.
Proof.
  intros Hk. apply Z.bits_inj'. intros i Hi. rewrite Z.land_spec. destruct (Z.ltb_spec i k).
  - rewrite !Z.shiftl_spec_low by lia. apply andb_false_r.
  - rewrite !Z.shiftl_spec by lia. rewrite Z.land_spec, Z.shiftr_spec by lia. replace (i - k + k) with i by lia. reflexivity.
Qed.
Lemma land128 x : 0 <= x < 256 -> Z.land x 128 = if x <? 128 then 0 else 128.
Proof.
  intros H. change 128 with (Z.shiftl 1 7) at 1. rewrite land_shl_mask by lia. change 1 with (Z.ones 1) at 1.
  rewrite Z.land_ones, shr7, Z.shiftl_mul_pow2 by lia. change (2 ^ 1) with 2. change (2 ^ 7) with 128.
  destruct (Z.ltb_spec x 128); lia.
Qed.

Lemma high_bits_zero a k n : 0 <= a < 2 ^ k -> k <= n -> Z.testbit a n = false.
Proof.
  intros [Ha Hk] Hn. destruct (Z.eq_dec a 0) as [->|Hnz]; [apply Z.bits_0|].
  apply Z.bits_above_log2; [lia|]. assert (Z.log2 a < k) by (apply Z.log2_lt_pow2; lia). lia.
Qed.
Lemma lor_shl_add a b k : 0 <= k -> 0 <= a < 2 ^ k -> Z.lor a (Z.shiftl b k) = a + b * 2 ^ k.
Proof.
  intros Hk Ha. rewrite <- Z.shiftl_mul_pow2 by lia.
  assert (H0 : Z.land a (Z.shiftl b k) = 0).
  { apply Z.bits_inj'. intros n Hn. rewrite Z.land_spec, Z.bits_0. destruct (Z.ltb_spec n k).
    - rewrite Z.shiftl_spec_low by lia. apply andb_false_r.
    - rewrite (high_bits_zero a k n) by lia. reflexivity. }
  rewrite <- Z.lxor_lor by exact H0. symmetry. apply Z.add_nocarry_lxor. exact H0.
Qed.
Lemma lor_mul_add a b k : 0 <= k -> 0 <= a < 2 ^ k -> Z.lor a (b * 2 ^ k) = a + b * 2 ^ k.
Proof. intros. rewrite <- lor_shl_add by lia. rewrite Z.shiftl_mul_pow2 by lia. reflexivity. Qed.

(* the same with the power of two given as a literal, so that [lia] sees only constants *)
Lemma lor_shl_c a b k p : p = 2 ^ k -> 0 <= k -> 0 <= a < p -> Z.lor a (Z.shiftl b k) = a + b * p.
Proof. intros -> Hk Ha. apply lor_shl_add; assumption. Qed.
Lemma shl_c x k p : p = 2 ^ k -> 0 <= k -> Z.shiftl x k = x * p.
Proof. intros -> Hk. apply Z.shiftl_mul_pow2; lia. Qed.
Lemma shr_c x k p : p = 2 ^ k -> 0 <= k -> Z.shiftr x k = x / p.
Proof. intros -> Hk. apply Z.shiftr_div_pow2; lia. Qed.
Ltac lorc k p := rewrite (lor_shl_c _ _ k p eq_refl) by lia.
Ltac shlc k p := rewrite (shl_c _ k p eq_refl) by lia.
Ltac shrc k p := rewrite (shr_c _ k p eq_refl) by lia.

Lemma land224 b : 0 <= b < 256 -> Z.land b 224 = b / 32 * 32.
Proof. intros H. change 224 with (Z.shiftl 7 5). rewrite land_shl_mask, (land_ones_mod _ 3) by lia. shrc 5 32. shlc 5 32. change (2 ^ 3) with 8. lia. Qed.
Lemma land240 b : 0 <= b < 256 -> Z.land b 240 = b / 16 * 16.
Proof. intros H. change 240 with (Z.shiftl 15 4). rewrite land_shl_mask, land15 by lia. shrc 4 16. shlc 4 16. lia. Qed.
