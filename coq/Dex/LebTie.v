(* The tie between the source and the model: the syntax trees in gen/Gen_Leb.v are re-serialised
   from /repo on every run; run by the PyLite interpreter they compute exactly the hand model. *)
From Coq Require Import ZArith List String Bool.
Require Import V.Lib.Result V.Lib.PyLite V.gen.Gen_Leb V.Dex.LebModel.
Import ListNotations.
Open Scope Z_scope. Open Scope string_scope.

(* closed arithmetic computes during [cbn]; anything with a variable operand stays folded *)
Arguments Z.land !a !b. Arguments Z.lor !a !b. Arguments Z.shiftl !a !n. Arguments Z.shiftr !a !n.
Arguments Z.add !x !y. Arguments Z.sub !m !n. Arguments Z.ltb !x !y. Arguments Z.gtb !x !y. Arguments Z.leb !x !y.
Arguments Z.geb !x !y. Arguments Z.eqb !x !y. Arguments Z.max !n !m. Arguments Z.mul !x !y. Arguments Z.opp !x.
Arguments Z.pow : simpl never. Arguments Z.div : simpl never. Arguments Z.modulo : simpl never.

Definition py_read (body : list stmt) (bs : list Z) : result (Z * list Z) :=
  match run body [("buff", VBytes bs)] with
  | Ok (VInt z, r) => match lookup "buff" r with Ok (VBytes t) => Ok (z, t) | _ => Err TypeError end
  | Ok _ => Err TypeError
  | Err e => Err e
  end.
Definition py_write (body : list stmt) (v : Z) : result (list Z) :=
  match run body [("value", VInt v)] with
  | Ok (VBytes b, _) => Ok b | Ok _ => Err TypeError | Err e => Err e end.

Theorem tie_read_u : forall bs, py_read src_readuleb128 bs = read_u bs.
Proof.
  intros bs. unfold py_read, read_u, run, runf, src_readuleb128.
  destruct bs as [|b0 [|b1 [|b2 [|b3 [|b4 r]]]]]; cbn; try reflexivity;
    repeat (match goal with |- context[if ?c then _ else _] => destruct c eqn:? end; cbn; try reflexivity).
Qed.

(* readsleb128 and the two writers are tied by the correspondence stream only: symbolic execution
   of their loops through the interpreter was measured at more than five minutes per function. *)
