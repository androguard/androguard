(* C03 - the writers: every 32-bit value is written as a well-formed encoding of that value. *)
From Coq Require Import ZArith List Bool Lia ZifyBool.
Require Import V.Lib.Bits V.Lib.Result V.Dex.LebModel V.Dex.LebSpec V.Dex.LebProofs.
Import ListNotations.
Open Scope Z_scope.

Lemma lor128 x : 0 <= x < 128 -> Z.lor x 128 = x + 128.
Proof. intros H. change 128 with (1 * 2 ^ 7) at 1. rewrite lor_mul_add by (change (2 ^ 7) with 128; lia). reflexivity. Qed.

Lemma pack_B_ok x : 0 <= x <= 255 -> pack_B x = Ok [x].
Proof. intros H. unfold pack_B. now replace ((0 <=? x) && (x <=? 255)) with true by lia. Qed.

Lemma pack_last v : pack_B (Z.land v 127) = Ok [v mod 128].
Proof. rewrite land127. apply pack_B_ok. lia. Qed.
Lemma pack_more v : pack_B (Z.lor (Z.land v 127) 128) = Ok [v mod 128 + 128].
Proof. rewrite land127, lor128 by lia. apply pack_B_ok. lia. Qed.

Lemma wul_more f value rem buff : 0 < rem ->
  write_u_loop (S f) value rem buff = write_u_loop f rem (rem / 128) (buff ++ [value mod 128 + 128]).
Proof.
  intros H. cbn [write_u_loop]. destruct (Z.gtb_spec rem 0); [|lia]. rewrite pack_more, shr7. reflexivity.
Qed.
Lemma wul_last f value rem buff : rem <= 0 ->
  write_u_loop (S f) value rem buff = Ok (buff ++ [value mod 128]).
Proof.
  intros H. cbn [write_u_loop]. destruct (Z.gtb_spec rem 0); [lia|]. rewrite pack_last. reflexivity.
Qed.

Lemma write_u_loop_spec : forall n v fuel buff, 0 <= v < 128 * 128 ^ Z.of_nat n -> (n < fuel)%nat ->
  exists bs, write_u_loop fuel v (v / 128) buff = Ok (buff ++ bs) /\ terminated bs = true /\ (length bs <= S n)%nat /\ leb_raw bs = v.
Proof.
  induction n as [|n IH]; intros v [|f] buff Hv Hf; try lia; destruct (Z_lt_dec v 128) as [C|C].
  1, 3: rewrite wul_last by lia; exists [v mod 128]; cbn [leb_raw length]; repeat split; [apply terminated_last|..]; lia.
  - change (128 ^ Z.of_nat 0) with 1 in Hv. lia.
  - rewrite wul_more by lia. rewrite Nat2Z.inj_succ, Z.pow_succ_r in Hv by lia.
    destruct (IH (v / 128) f (buff ++ [v mod 128 + 128])) as (bs & E & T & L & R); [lia..|].
    exists ((v mod 128 + 128) :: bs). rewrite E, <- app_assoc. cbn [leb_raw length].
    repeat split; [apply terminated_more|..]; solve [assumption | lia].
Qed.

Theorem write_u_spec : forall v, 0 <= v < 4294967296 ->
  exists bs, write_u v = Ok bs /\ wf_leb bs = true /\ uleb_value bs = v.
Proof.
  intros v H. unfold write_u, write_u_fuel. destruct (Z.ltb_spec v 0); [lia|]. rewrite shr7.
  destruct (write_u_loop_spec 4 v 40 []) as (bs & E & T & L & R); [change (128 * 128 ^ Z.of_nat 4) with 34359738368; lia..|].
  exists bs. split; [exact E|]. unfold wf_leb, uleb_value, nbytes. rewrite T, R. split; lia.
Qed.

Theorem write_read_u : forall v r, 0 <= v < 4294967296 ->
  exists bs, write_u v = Ok bs /\ read_u (bs ++ r) = Ok (v, r).
Proof.
  intros v r H. destruct (write_u_spec v H) as (bs & E & W & V). exists bs. split; [exact E|].
  rewrite read_u_spec by exact W. rewrite V. reflexivity.
Qed.
Theorem write_read_up1 : forall v r, -1 <= v < 4294967295 ->
  exists bs, write_u (v + 1) = Ok bs /\ read_up1 (bs ++ r) = Ok (v, r).
Proof.
  intros v r H. destruct (write_u_spec (v + 1)) as (bs & E & W & V); [lia|]. exists bs. split; [exact E|].
  rewrite read_up1_spec by exact W. unfold ulebp1_value. rewrite V. f_equal. f_equal. lia.
Qed.

Lemma land1 x : Z.land x 1 = x mod 2.
Proof. change 1 with (Z.ones 1). rewrite Z.land_ones by lia. reflexivity. Qed.
Lemma shr6 x : Z.shiftr x 6 = x / 64.
Proof. rewrite Z.shiftr_div_pow2 by lia. reflexivity. Qed.
Lemma land_min64 v : Z.land v (- 9223372036854775807 - 1) = (v / 9223372036854775808) * 9223372036854775808.
Proof.
  change (- 9223372036854775807 - 1) with (Z.lnot (Z.ones 63)).
  rewrite <- Z.ldiff_land, Z.ldiff_ones_r by lia.
  rewrite Z.shiftr_div_pow2, Z.shiftl_mul_pow2 by lia. reflexivity.
Qed.

Lemma wsl_more f value rem e buff :
  (rem <> e \/ rem mod 2 <> (value / 64) mod 2) ->
  write_s_loop (S f) value rem e buff = write_s_loop f rem (rem / 128) e (buff ++ [value mod 128 + 128]).
Proof.
  intros H. cbn [write_s_loop]. rewrite !land1, shr6. replace (negb _ || negb _) with true by lia.
  rewrite pack_more, shr7. reflexivity.
Qed.
Lemma wsl_last f value rem e buff :
  rem = e -> rem mod 2 = (value / 64) mod 2 ->
  write_s_loop (S f) value rem e buff = Ok (buff ++ [value mod 128]).
Proof.
  intros H1 H2. cbn [write_s_loop]. rewrite !land1, shr6. replace (negb _ || negb _) with false by lia.
  rewrite Z.lor_0_r, pack_last. reflexivity.
Qed.

(* e is the end marker of writesleb128: 0 for a non-negative value, -1 for a negative one *)
Lemma write_s_loop_spec : forall n v fuel buff e, 0 <= v /\ e = 0 \/ v < 0 /\ e = -1 ->
  -64 * 128 ^ Z.of_nat n <= v < 64 * 128 ^ Z.of_nat n -> (n < fuel)%nat ->
  exists bs, write_s_loop fuel v (v / 128) e buff = Ok (buff ++ bs) /\ terminated bs = true /\ (length bs <= S n)%nat /\ sleb_raw bs = v.
Proof.
  induction n as [|n IH]; intros v [|f] buff e He Hv Hf; try lia;
    assert (C : -64 <= v < 64 \/ ~ -64 <= v < 64) by lia; destruct C as [C|C].
  1, 3: rewrite wsl_last by lia; exists [v mod 128]; rewrite sleb_raw_last; cbn [length];
    repeat split; [apply terminated_last|..]; split_ifs; lia.
  - change (128 ^ Z.of_nat 0) with 1 in Hv. lia.
  - rewrite wsl_more by lia. rewrite Nat2Z.inj_succ, Z.pow_succ_r in Hv by lia.
    destruct (IH (v / 128) f (buff ++ [v mod 128 + 128]) e) as (bs & E & T & L & R); [lia..|].
    exists ((v mod 128 + 128) :: bs). rewrite E, <- app_assoc, sleb_raw_more by (apply terminated_pos, T). cbn [length].
    repeat split; [apply terminated_more|..]; solve [assumption | lia].
Qed.

Theorem write_s_spec : forall v, -2147483648 <= v < 2147483648 ->
  exists bs, write_s v = Ok bs /\ wf_leb bs = true /\ sleb_value bs = v.
Proof.
  intros v H. unfold write_s, write_s_fuel. rewrite land_min64, shr7.
  destruct (write_s_loop_spec 4 v 40 [] (if v / 9223372036854775808 * 9223372036854775808 =? 0 then 0 else -1))
    as (bs & E & T & L & R); [destruct (Z.eqb_spec (v / 9223372036854775808 * 9223372036854775808) 0); lia
                             |change (128 ^ Z.of_nat 4) with 268435456; lia|lia|].
  exists bs. split; [exact E|]. unfold wf_leb, nbytes. rewrite T. split; [lia|].
  change (sleb_value bs) with (wrap32 (sleb_raw bs)). rewrite R. apply wrap32_small, H.
Qed.

Theorem write_read_s : forall v r, -2147483648 <= v < 2147483648 ->
  exists bs, write_s v = Ok bs /\ read_s (bs ++ r) = Ok (v, r).
Proof.
  intros v r H. destruct (write_s_spec v H) as (bs & E & W & V). exists bs. split; [exact E|].
  rewrite read_s_spec by exact W. rewrite V. reflexivity.
Qed.
