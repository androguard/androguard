(* C02 - the sweep recovers an assembled stream: chunks whose decoding does not depend on what follows them are yielded
   one by one, in order, at their byte offsets, and the declared size is consumed exactly *)
From Coq Require Import ZArith List Bool Lia ZifyBool.
Require Import V.Lib.Val V.Lib.Result V.Lib.ListFacts V.Lib.Struct V.gen.Gen_Insn V.Dex.InsnModel V.Dex.InsnSpec V.Dex.SweepModel V.Dex.SweepProofs.
Import ListNotations.
Open Scope Z_scope.

Lemma zlen_app (a b : list Z) : zlen (a ++ b) = zlen a + zlen b.
Proof. unfold zlen. rewrite app_length. lia. Qed.
Lemma zlen_nonneg (a : list Z) : 0 <= zlen a.  Proof. unfold zlen. lia. Qed.
Lemma drop_app pre l : drop (pre ++ l) (zlen pre) = l.
Proof. unfold zlen. rewrite drop_skipn, Nat2Z.id. apply skipn_length_app. Qed.
Lemma take_app a l : take (a ++ l) (zlen a) = a.
Proof. unfold zlen. rewrite take_firstn, Nat2Z.id. apply firstn_length_app. Qed.
Lemma slice_app pre a l n : n = zlen pre + zlen a -> slice (pre ++ a ++ l) (zlen pre) n = a.
Proof. intros ->. unfold slice. rewrite drop_app. replace (_ - _) with (zlen a) by lia. apply take_app. Qed.
Lemma skipn_app_exact pre (l : list Z) : skipn (Z.to_nat (zlen pre)) (pre ++ l) = l.
Proof. rewrite <- drop_skipn. apply drop_app. Qed.

Definition unit0 (c : list Z) : Z := match c with a :: b :: _ => a + 256 * b | _ => 0 end.
Lemma unpack_u16 a b : unpack [FU 2] [a; b] = Ok [a + 256 * b].
Proof. rewrite <- lu_2. reflexivity. Qed.
Lemma unpack_unit0 pre a b c rest : unpack [FU 2] (slice (pre ++ (a :: b :: c) ++ rest) (zlen pre) (zlen pre + 2)) = Ok [unit0 (a :: b :: c)].
Proof. change ((a :: b :: c) ++ rest) with ([a; b] ++ c ++ rest). rewrite slice_app by reflexivity. apply unpack_u16. Qed.

Definition self_delimiting (odex : bool) (c : list Z) (it : item) : Prop :=
  2 <= zlen c /\ it_len it = zlen c /\ forall rest, sweep_one odex (c ++ rest) (unit0 c) = Ok it.

Fixpoint placed (at_ : Z) (chunks : list (list Z)) (items : list item) : list (Z * item) :=
  match chunks, items with
  | c :: cs, it :: its => (at_, it) :: placed (at_ + zlen c) cs its
  | _, _ => []
  end.

(* the loop at any position of the buffer, which the induction moves on *)
Lemma sweep_stream_at odex : forall chunks items pre after fuel idx max,
  Forall2 (self_delimiting odex) chunks items -> (length chunks < fuel)%nat -> idx = zlen pre -> max = idx + zlen (concat chunks) ->
  sweep fuel odex (pre ++ concat chunks ++ after) max idx = (placed idx chunks items, None).
Proof.
  induction chunks as [|c chunks IH]; intros items pre after [|f] idx max H Hf -> ->; try (cbn [length] in Hf; lia);
    inversion H as [|? it ? its (Hc2 & Hlen & Hdec) Hrest]; subst; cbn [sweep concat placed].
  - change (zlen []) with 0. replace (_ <? _) with false by lia. reflexivity.
  - rewrite zlen_app. pose proof (zlen_nonneg (concat chunks)). replace (zlen pre <? _) with true by lia.
    destruct c as [|a [|b c']]; try (unfold zlen in Hc2; cbn [length] in Hc2; lia).
    rewrite <- app_assoc, unpack_unit0, skipn_app_exact, Hdec, Hlen. replace (_ <? _) with false by lia.
    rewrite (app_assoc pre), (IH its (pre ++ a :: b :: c') after f _ _ Hrest) by (rewrite ?zlen_app; cbn [length] in Hf; lia).
    reflexivity.
Qed.
Theorem sweep_stream odex : forall chunks items pre after fuel,
  Forall2 (self_delimiting odex) chunks items -> (length chunks < fuel)%nat ->
  sweep fuel odex (pre ++ concat chunks ++ after) (zlen pre + zlen (concat chunks)) (zlen pre) = (placed (zlen pre) chunks items, None).
Proof. intros. now apply sweep_stream_at. Qed.
(* get_instructions on a code item that is exactly the assembled stream: every item, in order, at its offset; no error;
   the last item ends at the declared size *)
Theorem get_instructions_of_stream odex chunks items after :
  Forall2 (self_delimiting odex) chunks items ->
  get_instructions odex (zlen (concat chunks) / 2) (concat chunks ++ after) 0 = (placed 0 chunks items, None) \/ zlen (concat chunks) mod 2 <> 0.
Proof.
  intros H. destruct (Z.eq_dec (zlen (concat chunks) mod 2) 0) as [E|E]; [left | right; exact E].
  unfold get_instructions. pose proof (zlen_nonneg after).
  replace (zlen (concat chunks) / 2 * 2) with (zlen (concat chunks)) by lia. rewrite zlen_app.
  replace (zlen (concat chunks) + zlen after <? zlen (concat chunks)) with false by lia.
  apply (sweep_stream odex chunks items [] after); [exact H|]. rewrite app_length.
  assert (L : (length chunks <= length (concat chunks))%nat).
  { clear E. induction H as [|c it cs its (Hc & _) _ IH]; cbn [concat length]; [lia|]. rewrite app_length. unfold zlen in Hc. lia. }
  lia.
Qed.

(* every translated constructor reads the first len bytes of its buffer and nothing else *)
Lemma firstn_app_exact (n : nat) (bs rest : list Z) : Z.of_nat (length bs) = Z.of_nat n -> firstn n (bs ++ rest) = firstn n bs.
Proof. intros H. rewrite firstn_app. replace (n - length bs)%nat with 0%nat by lia. apply app_nil_r. Qed.
Lemma dec_prefix c bs rest : Z.of_nat (length bs) = len_of_class c -> dec_of_class c (bs ++ rest) = dec_of_class c bs.
Proof.
  unfold dec_of_class, len_of_class. intros H.
  repeat match type of H with
  | _ = (if ?b then _ else _) =>
      destruct b; [match goal with |- ?f _ = _ => unfold f end; rewrite firstn_app_exact by exact H; reflexivity|]
  end.
  destruct (c =? 36); reflexivity.
Qed.
Lemma ordinary_prefix tbl op c rest it : ordinary tbl op c = Ok it -> it_len it = zlen c -> ordinary tbl op (c ++ rest) = Ok it.
Proof.
  unfold ordinary, get_instruction. destruct (lookup_op tbl op) as [[cl name]|]; [|discriminate]. intros H Hl.
  assert (E : dec_of_class cl (c ++ rest) = dec_of_class cl c).
  { apply dec_prefix. destruct (dec_of_class cl c) as [f|e]; [injection H as <-; cbn [it_len] in Hl; unfold zlen in Hl; lia | destruct e; discriminate]. }
  rewrite E. exact H.
Qed.
Ltac break_match H := repeat match type of H with context [match ?x with _ => _ end] => destruct x end; try discriminate.
Lemma packed_kind buff it : packed_switch buff = Ok it -> it_kind it = 1.
Proof. unfold packed_switch. intros H. break_match H; injection H as <-; reflexivity. Qed.
Lemma sparse_kind buff it : sparse_switch buff = Ok it -> it_kind it = 2.
Proof. unfold sparse_switch. intros H. break_match H; injection H as <-; reflexivity. Qed.
Lemma fill_kind buff it : fill_array_data buff = Ok it -> it_kind it = 3.
Proof. unfold fill_array_data. intros H. break_match H; injection H as <-; reflexivity. Qed.
Theorem ordinary_chunk_self_delimiting odex c it :
  2 <= zlen c -> sweep_one odex c (unit0 c) = Ok it -> it_kind it = 0 -> it_len it = zlen c -> self_delimiting odex c it.
Proof.
  intros H2 Hd Hk Hl. split; [exact H2|]. split; [exact Hl|]. intros rest.
  destruct (sweep_one_cases odex (unit0 c)) as [E|[E|[E|[E|(tbl & op' & _ & E)]]]]; rewrite E in Hd |- *.
  - apply packed_kind in Hd. lia.
  - apply sparse_kind in Hd. lia.
  - apply fill_kind in Hd. lia.
  - discriminate.
  - now apply ordinary_prefix.
Qed.

Lemma take8 a b c d e f g h l : take (a :: b :: c :: d :: e :: f :: g :: h :: l) 8 = [a; b; c; d; e; f; g; h].  Proof. destruct l; reflexivity. Qed.
Lemma unpack1_s32 a b c d : unpack1 (FS 4) [a; b; c; d] = Ok (ls [a; b; c; d]).
Proof. reflexivity. Qed.
Lemma read_s32s_words : forall n body pre rest, length body = (4 * n)%nat -> Forall byte body ->
  exists vals, read_s32s n (pre ++ body ++ rest) (zlen pre) = Ok vals /\ pack_s32s vals = Ok body /\ length vals = n.
Proof.
  induction n as [|n IH]; intros body pre rest Hl Hb.
  - destruct body; [|discriminate]. exists []. repeat split.
  - destruct body as [|a [|b [|c [|d body]]]]; try (cbn [length] in Hl; lia).
    apply (Forall_app byte [a; b; c; d] body) in Hb as [H4 Hb].
    destruct (IH body (pre ++ [a; b; c; d]) rest) as (vals & Er & Ep & Ln); [cbn [length] in Hl; lia | exact Hb|].
    exists (ls [a; b; c; d] :: vals). cbn [read_s32s]. change ((a :: b :: c :: d :: body) ++ rest) with ([a; b; c; d] ++ body ++ rest).
    rewrite slice_app, unpack1_s32, (app_assoc pre) by reflexivity.
    replace (zlen pre + 4) with (zlen (pre ++ [a; b; c; d])) by (rewrite zlen_app; reflexivity). rewrite Er. split; [reflexivity|]. split; [|cbn [length]; lia].
    cbn [pack_s32s]. rewrite (pack_unpack [FS 4] [a; b; c; d] [ls [a; b; c; d]] ltac:(repeat constructor) H4 eq_refl), Ep. reflexivity.
Qed.
Lemma slice0 a l n : n = zlen a -> slice (a ++ l) 0 n = a.
Proof. exact (slice_app [] a l n). Qed.

(* packed-switch-payload: ident 0x0100, size, first_key, size targets *)
Theorem packed_chunk s0 s1 k0 k1 k2 k3 body rest :
  Forall byte [s0; s1; k0; k1; k2; k3] -> Forall byte body -> Z.of_nat (length body) = 4 * (s0 + 256 * s1) ->
  let c := 0 :: 1 :: s0 :: s1 :: k0 :: k1 :: k2 :: k3 :: body in
  packed_switch (c ++ rest) = Ok {| it_len := zlen c; it_raw := Ok c; it_kind := 1 |}.
Proof.
  intros Hh Hb Hl c. set (h := [0; 1; s0; s1; k0; k1; k2; k3]).
  assert (Eu : unpack [FU 2; FU 2; FS 4] h = Ok [lu [0; 1]; s0 + 256 * s1; ls [k0; k1; k2; k3]]) by (rewrite <- lu_2; reflexivity).
  assert (Ep : pack [FU 2; FU 2; FS 4] [lu [0; 1]; s0 + 256 * s1; ls [k0; k1; k2; k3]] = Ok h).
  { apply pack_unpack; [repeat constructor | | exact Eu]. do 2 (apply Forall_cons; [unfold byte; lia|]). exact Hh. }
  unfold packed_switch. change (c ++ rest) with (h ++ body ++ rest). rewrite (slice0 h _ 8 eq_refl), Eu, Ep.
  pose proof (zlen_nonneg rest). replace (_ <? _) with false by (rewrite !zlen_app; unfold zlen at 1 2; cbn [length]; lia).
  destruct (read_s32s_words (Z.to_nat (s0 + 256 * s1)) body h rest) as (vals & Er & Et & Ln); [lia | assumption|].
  change (zlen h) with 8 in Er. rewrite Er, Et. do 2 f_equal. unfold c, zlen. cbn [length]. lia.
Qed.

(* sparse-switch-payload: ident 0x0200, size, size keys, size targets *)
Theorem sparse_chunk s0 s1 keys targets rest :
  Forall byte [s0; s1] -> Forall byte keys -> Forall byte targets ->
  Z.of_nat (length keys) = 4 * (s0 + 256 * s1) -> Z.of_nat (length targets) = 4 * (s0 + 256 * s1) ->
  let c := 0 :: 2 :: s0 :: s1 :: keys ++ targets in
  sparse_switch (c ++ rest) = Ok {| it_len := zlen c; it_raw := Ok c; it_kind := 2 |}.
Proof.
  intros Hh Hk Ht Lk Lt c. set (h := [0; 2; s0; s1]).
  assert (Eu : unpack [FU 2; FU 2] h = Ok [lu [0; 2]; s0 + 256 * s1]) by (rewrite <- lu_2; reflexivity).
  assert (Ep : pack [FU 2; FU 2] [lu [0; 2]; s0 + 256 * s1] = Ok h).
  { apply pack_unpack; [repeat constructor | | exact Eu]. do 2 (apply Forall_cons; [unfold byte; lia|]). exact Hh. }
  unfold sparse_switch, c. cbn [app]. rewrite <- app_assoc. change (0 :: 2 :: s0 :: s1 :: keys ++ targets ++ rest) with (h ++ keys ++ targets ++ rest).
  rewrite (slice0 h _ 4 eq_refl), Eu, Ep.
  destruct (read_s32s_words (Z.to_nat (s0 + 256 * s1)) keys h (targets ++ rest)) as (kv & Er1 & Ep1 & Ln1); [lia | assumption|].
  change (zlen h) with 4 in Er1. rewrite Er1.
  destruct (read_s32s_words (Z.to_nat (s0 + 256 * s1)) targets (h ++ keys) rest) as (tv & Er2 & Ep2 & Ln2); [lia | assumption|].
  rewrite <- app_assoc in Er2. replace (zlen (h ++ keys)) with (4 + 4 * (s0 + 256 * s1)) in Er2 by (rewrite zlen_app; change (zlen h) with 4; unfold zlen; lia).
  rewrite Er2, Ep1, Ep2. do 2 f_equal. unfold zlen. cbn [length]. rewrite app_length. lia.
Qed.
(* fill-array-data-payload: ident 0x0300, element width, element count, the data padded to an even number of bytes *)
Theorem fill_chunk w0 w1 n0 n1 n2 n3 data rest :
  Forall byte [w0; w1; n0; n1; n2; n3] ->
  let width := w0 + 256 * w1 in let size := n0 + 256 * n1 + 65536 * n2 + 16777216 * n3 in
  zlen data = (if (size * width) mod 2 =? 0 then size * width else size * width + 1) ->
  let c := 0 :: 3 :: w0 :: w1 :: n0 :: n1 :: n2 :: n3 :: data in
  fill_array_data (c ++ rest) = Ok {| it_len := zlen c; it_raw := Ok c; it_kind := 3 |}.
Proof.
  intros Hh width size Ld c. set (h := [0; 3; w0; w1; n0; n1; n2; n3]).
  assert (Eu : unpack [FU 2; FU 2; FU 4] h = Ok [lu [0; 3]; width; size]) by (unfold width, size; rewrite <- lu_2, <- lu_4; reflexivity).
  assert (Ep : pack [FU 2; FU 2; FU 4] [lu [0; 3]; width; size] = Ok h).
  { apply pack_unpack; [repeat constructor | | exact Eu]. do 2 (apply Forall_cons; [unfold byte; lia|]). exact Hh. }
  unfold fill_array_data. change (c ++ rest) with (h ++ data ++ rest). rewrite (slice0 h _ 8 eq_refl), Eu, Ep. cbv zeta. rewrite <- Ld.
  rewrite (slice_app h data rest) by reflexivity.
  do 2 f_equal. unfold c, zlen in *. cbn [length]. destruct ((size * width) mod 2 =? 0) eqn:E; lia.
Qed.

Lemma payload_self_delimiting odex c it op : unit0 c = op -> (op = 256 \/ op = 512 \/ op = 768) -> 2 <= zlen c -> it_len it = zlen c ->
  (forall rest, (if op =? 256 then packed_switch (c ++ rest) else if op =? 512 then sparse_switch (c ++ rest) else fill_array_data (c ++ rest)) = Ok it) ->
  self_delimiting odex c it.
Proof.
  intros Eu Hop H2 Hl Hd. split; [exact H2|]. split; [exact Hl|]. intros rest. specialize (Hd rest). unfold sweep_one. rewrite Eu.
  destruct Hop as [-> | [-> | ->]]; exact Hd.
Qed.
