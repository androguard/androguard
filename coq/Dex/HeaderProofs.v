(* C09 - header_check accepts exactly the headers whose checked fields are right, and rejects every change of a single byte
   after the checksum field: the low half of Adler-32 is 1 + the byte sum modulo 65521, and one byte moves the sum by < 256 *)
From Coq Require Import ZArith List Bool Lia.
Require Import V.Lib.Val V.Lib.Result V.Lib.ListFacts V.Dex.HeaderModel.
Import ListNotations.
Open Scope Z_scope.
Ltac Zify.zify_post_hook ::= Z.to_euclidean_division_equations.

Definition sumz (l : list Z) : Z := fold_right Z.add 0 l.

Lemma adler_fst : forall l st, 0 <= fst st < 65521 -> fst (fold_left adler_step l st) = (fst st + sumz l) mod 65521.
Proof.
  induction l as [|d l IH]; intros st Ha; [cbn [fold_left sumz fold_right]; lia|].
  change (sumz (d :: l)) with (d + sumz l). cbn [fold_left]. rewrite IH; cbn [adler_step fst]; lia.
Qed.
Lemma adler_low l : fst (adler_state l) = (1 + sumz l) mod 65521.
Proof. apply (adler_fst l (1, 0)). cbn [fst]. lia. Qed.
Lemma adler_snd_range : forall l a b, 0 <= b < 65521 -> 0 <= snd (fold_left adler_step l (a, b)) < 65521.
Proof.
  induction l as [|d l IH]; intros a b Hb; [exact Hb|]. cbn [fold_left adler_step fst snd].
  apply IH. apply Z.mod_pos_bound. lia.
Qed.
Lemma adler32_low l1 l2 : adler32 l1 = adler32 l2 -> (1 + sumz l1) mod 65521 = (1 + sumz l2) mod 65521.
Proof.
  intros E. rewrite <- !adler_low. unfold adler32 in E.
  pose proof (adler_low l1) as A1. pose proof (adler_low l2) as A2.
  destruct (adler_state l1) as [a1 b1]. destruct (adler_state l2) as [a2 b2]. cbn [fst] in *. lia.
Qed.

Lemma upd_set_nth : forall l i v, upd i v l = set_nth l i v.
Proof. induction l as [|x l IH]; intros [|i] v; cbn [upd set_nth]; [reflexivity..|]. now rewrite IH. Qed.
Lemma upd_length : forall l i v, length (upd i v l) = length l.
Proof. intros. rewrite upd_set_nth. apply set_nth_length. Qed.
Lemma nth_upd_same : forall l i v, (i < length l)%nat -> nth i (upd i v l) 0 = v.
Proof. intros. rewrite upd_set_nth. now apply nth_set_nth_same. Qed.
Lemma nth_upd_other : forall l i j v, i <> j -> nth j (upd i v l) 0 = nth j l 0.
Proof. intros. rewrite upd_set_nth. now apply nth_set_nth_other. Qed.
Lemma sumz_upd : forall l i v, (i < length l)%nat -> sumz (upd i v l) = sumz l - nth i l 0 + v.
Proof.
  induction l as [|x l IH]; intros i v H; [simpl in H; lia|].
  destruct i as [|i]; cbn [upd sumz fold_right nth]; [lia|]. fold (sumz l). fold (sumz (upd i v l)).
  rewrite IH by (simpl in H; lia). lia.
Qed.
Lemma upd_nil i v : upd i v [] = [].
Proof. destruct i; reflexivity. Qed.
Lemma skipn_upd : forall k l i v, (k <= i)%nat -> skipn k (upd i v l) = upd (i - k) v (skipn k l).
Proof.
  induction k as [|k IH]; intros l i v H; [rewrite Nat.sub_0_r; reflexivity|].
  destruct l as [|x l]; [rewrite upd_nil; cbn [skipn]; rewrite upd_nil; reflexivity|].
  destruct i as [|i]; [lia|]. simpl. apply IH. lia.
Qed.
Lemma nth_skipn : forall k (l : list Z) i, nth i (skipn k l) 0 = nth (k + i) l 0.
Proof.
  induction k as [|k IH]; intros l i; [reflexivity|]. destruct l as [|x l]; [destruct i; reflexivity|]. simpl. apply IH.
Qed.

Theorem adler_single_byte l i v : (i < length l)%nat -> is_byte (nth i l 0) -> is_byte v ->
  v <> nth i l 0 -> adler32 (upd i v l) <> adler32 l.
Proof.
  intros Hi Hb Hv Hne E. apply adler32_low in E. rewrite sumz_upd in E by exact Hi.
  unfold is_byte in *. lia.
Qed.

Definition magic_ok (bs : list Z) : bool :=
  (byte_at bs 0 =? 100) && (byte_at bs 1 =? 101) && ((byte_at bs 2 =? 120) || (byte_at bs 2 =? 121))
  && (byte_at bs 3 =? 10) && (byte_at bs 7 =? 0).

Theorem header_ok_iff bs : header_check bs = Ok tt <->
  (112 <= length bs)%nat /\ le32 bs 40 = 305419896 /\ magic_ok bs = true /\
  adler32 (skipn 12 bs) = le32 bs 8 /\ le32 bs 36 = 112 /\ le32 bs 64 <= 65535 /\ le32 bs 72 <= 65535.
Proof.
  unfold header_check, HEADER_SIZE. fold (magic_ok bs).
  destruct (Nat.ltb_spec (length bs) 112); [split; [discriminate | lia]|].
  destruct (Z.eqb_spec (le32 bs 40) 2018915346) as [E|_]; [split; [discriminate | rewrite E; lia]|].
  destruct (Z.eqb_spec (le32 bs 40) 305419896); cbn [negb]; [|split; [discriminate | tauto]].
  destruct (magic_ok bs); cbn [negb]; [|split; [discriminate | intuition discriminate]].
  destruct (Z.eqb_spec (adler32 (skipn 12 bs)) (le32 bs 8)); cbn [negb]; [|split; [discriminate | tauto]].
  destruct (Z.eqb_spec (le32 bs 36) 112); cbn [negb]; [|split; [discriminate | tauto]].
  destruct (Z.ltb_spec 65535 (le32 bs 64)); [split; [discriminate | lia]|].
  destruct (Z.ltb_spec 65535 (le32 bs 72)); [split; [discriminate | lia]|].
  split; [intros _; repeat split; auto | reflexivity].
Qed.

Lemma header_result bs : header_check bs = Ok tt \/ exists e, header_check bs = Err e.
Proof. destruct (header_check bs) as [[]|e]; [left; reflexivity | right; exists e; reflexivity]. Qed.

Lemma le32_upd_other bs i v k : (i < k \/ k + 3 < i)%nat -> le32 (upd i v bs) k = le32 bs k.
Proof. intros H. unfold le32, byte_at. rewrite !nth_upd_other by lia. reflexivity. Qed.

Theorem flip_after_checksum_rejected bs i v :
  header_check bs = Ok tt -> (12 <= i < length bs)%nat -> is_byte (nth i bs 0) -> is_byte v ->
  v <> nth i bs 0 -> exists e, header_check (upd i v bs) = Err e.
Proof.
  intros Hok Hi Hb Hv Hne. destruct (header_result (upd i v bs)) as [Hok'|He]; [|exact He]. exfalso.
  apply header_ok_iff in Hok. apply header_ok_iff in Hok'.
  destruct Hok as (_ & _ & _ & Hsum & _). destruct Hok' as (_ & _ & _ & Hsum' & _).
  rewrite le32_upd_other in Hsum' by lia. rewrite skipn_upd in Hsum' by lia.
  rewrite <- Hsum in Hsum'. revert Hsum'.
  assert (N : nth (i - 12) (skipn 12 bs) 0 = nth i bs 0) by (rewrite nth_skipn; f_equal; lia).
  apply adler_single_byte; rewrite ?N, ?skipn_length; [lia | exact Hb | exact Hv | exact Hne].
Qed.

(* a concrete accepted header: dex\n035\0, 0x70 header bytes and nothing else *)
Definition sample_rest : list Z :=
  repeat 0 20 ++ [112; 0; 0; 0; 112; 0; 0; 0; 120; 86; 52; 18] ++ repeat 0 68.
Definition sample_header : list Z :=
  [100; 101; 120; 10; 48; 51; 53; 0] ++
  [adler32 sample_rest mod 256; adler32 sample_rest / 256 mod 256; adler32 sample_rest / 65536 mod 256;
   adler32 sample_rest / 16777216] ++ sample_rest.
Lemma bytes_forallb l : forallb (fun x => (0 <=? x) && (x <? 256)) l = true -> Forall (fun x => 0 <= x < 256) l.
Proof.
  intros B. apply Forall_forall. intros x Hx. apply (proj1 (forallb_forall _ l) B), andb_true_iff in Hx.
  rewrite Z.leb_le, Z.ltb_lt in Hx. exact Hx.
Qed.
(* the byte test as one boolean: a proof term with a step per byte is slow to check again *)
Lemma sample_accepted : header_check sample_header = Ok tt /\ length sample_header = 112%nat /\
  Forall (fun x => 0 <= x < 256) sample_header.
Proof. split; [vm_compute; reflexivity|]. split; [reflexivity|]. apply bytes_forallb. vm_compute. reflexivity. Qed.
