(* C03 - the LEB128 readers of coq/Dex/LebModel.v return the value that coq/Dex/LebSpec.v gives the bytes, for every
   well-formed encoding and whatever follows it.  The signed reader is a loop: its theorem is an induction over the bytes
   with the accumulator general; the unsigned reader is unrolled five times in the source, and so is its proof. *)
From Coq Require Import ZArith List Bool Lia ZifyBool.
Require Import V.Lib.Val V.Lib.Result V.Lib.Bits V.Dex.LebModel V.Dex.LebSpec.
Import ListNotations.
Open Scope Z_scope.

(* these reach every importer: [simpl] in Dex/EncodedValueProofs.v counts on them *)
Arguments Z.land : simpl never. Arguments Z.lor : simpl never. Arguments Z.shiftl : simpl never.
Arguments Z.shiftr : simpl never. Arguments Z.add : simpl never. Arguments Z.sub : simpl never.
Arguments Z.mul : simpl never. Arguments Z.pow : simpl never. Arguments Z.div : simpl never.
Arguments Z.modulo : simpl never. Arguments Z.max : simpl never. Arguments Z.opp : simpl never.
Arguments Z.ltb : simpl never. Arguments Z.gtb : simpl never. Arguments Z.leb : simpl never.
Arguments Z.geb : simpl never. Arguments Z.eqb : simpl never.

Ltac split_ifs := repeat match goal with |- context[if ?c then _ else _] => destruct c eqn:? end.

Lemma nbytes_cons b t : nbytes (b :: t) = 1 + nbytes t.
Proof. unfold nbytes. cbn [length]. lia. Qed.
Lemma pow2_7_succ n : 0 <= n -> 2 ^ (7 * (1 + n)) = 128 * 2 ^ (7 * n).
Proof. intros. replace (7 * (1 + n)) with (7 + 7 * n) by lia. rewrite Z.pow_add_r by lia. reflexivity. Qed.
Lemma nbytes_nonneg bs : 0 <= nbytes bs.
Proof. unfold nbytes. lia. Qed.

Lemma leb_raw_range bs : 0 <= leb_raw bs < 2 ^ (7 * nbytes bs).
Proof.
  induction bs as [|b t IH]; [split; reflexivity|].
  rewrite nbytes_cons, pow2_7_succ by apply nbytes_nonneg. cbn [leb_raw].
  unfold nbytes in *. (* lia fails on the power while [nbytes t] is folded *) lia.
Qed.
Lemma terminated_cons b t : terminated (b :: t) = true ->
  (t = [] /\ 0 <= b < 128) \/ (128 <= b < 256 /\ terminated t = true).
Proof.
  destruct t as [|c t]; intros H; [left | right; apply andb_prop in H as [H H2]]; cbn [terminated] in H;
    split; try assumption; try reflexivity; lia.
Qed.
Lemma terminated_last b : 0 <= b < 128 -> terminated [b] = true.
Proof. cbn [terminated]. lia. Qed.
Lemma terminated_more b t : 128 <= b < 256 -> terminated t = true -> terminated (b :: t) = true.
Proof. intros Hb Ht. destruct t as [|c t]; [discriminate|]. apply andb_true_intro. split; [lia|exact Ht]. Qed.
Lemma terminated_pos bs : terminated bs = true -> 0 < nbytes bs.
Proof. destruct bs; [discriminate|]. unfold nbytes. cbn [length]. lia. Qed.

Definition sleb_raw (bs : list Z) : Z :=
  if leb_raw bs >=? 2 ^ (7 * nbytes bs - 1) then leb_raw bs - 2 ^ (7 * nbytes bs) else leb_raw bs.
Lemma sleb_raw_last b : sleb_raw [b] = if b mod 128 >=? 64 then b mod 128 - 128 else b mod 128.
Proof. unfold sleb_raw. cbn [leb_raw]. rewrite Z.mul_0_r, Z.add_0_r. reflexivity. Qed.
Lemma sleb_raw_more b t : 0 < nbytes t -> sleb_raw (b :: t) = b mod 128 + 128 * sleb_raw t.
Proof.
  intros H. unfold sleb_raw. cbn [leb_raw]. rewrite nbytes_cons, pow2_7_succ by lia.
  replace (7 * (1 + nbytes t) - 1) with (7 + (7 * nbytes t - 1)) by lia. rewrite Z.pow_add_r by lia. change (2 ^ 7) with 128.
  generalize (2 ^ (7 * nbytes t - 1)), (2 ^ (7 * nbytes t)). intros h q.
  split_ifs; lia.
Qed.

Lemma more_bit b : 128 <= b -> (b >? 127) = true.
Proof. lia. Qed.
Lemma last_bit b : b < 128 -> (b >? 127) = false.
Proof. lia. Qed.
Theorem read_u_spec : forall bs r, wf_leb bs = true -> read_u (bs ++ r) = Ok (uleb_value bs, r).
Proof.
  intros bs r H. unfold wf_leb, nbytes in H. apply andb_prop in H as [T L].
  destruct bs as [|b0 [|b1 [|b2 [|b3 [|b4 [|b5 t]]]]]]; cbn [terminated length] in T, L; try discriminate; [..|lia];
  unfold read_u, uleb_value; cbn beta iota delta [app get_byte bind leb_raw];
  rewrite ?more_bit, ?last_bit by lia; cbv zeta; rewrite ?land127, ?land15;
  try lorc 7 128; try lorc 14 16384; try lorc 21 2097152; try lorc 28 268435456; do 2 f_equal; lia.
Qed.

(* what readsleb128 does with the payload [x] of [k] bits once the last byte is in: sign extension from bit k-1 in a 32-bit register *)
Definition sext32 (k x : Z) : Z :=
  let bit_left := Z.max (32 - k) 0 in
  let res := Z.land (Z.shiftl x bit_left) 4294967295 in
  let res := if res >? 2147483647 then Z.land 2147483647 res - 2147483648 else res in
  Z.shiftr res bit_left.

Lemma wrap32_small x : -2147483648 <= x < 2147483648 -> wrap32 x = x.
Proof. intros H. unfold wrap32. cbv zeta. split_ifs; lia. Qed.

Lemma wrap32_congr a b m : a = b + m * 4294967296 -> wrap32 a = wrap32 b.
Proof. intros ->. unfold wrap32. now rewrite Z_mod_plus_full. Qed.

Lemma sext32_spec k x : 0 < k -> 0 <= x < 2 ^ k -> sext32 k x = wrap32 (if x >=? 2 ^ (k - 1) then x - 2 ^ k else x).
Proof.
  intros Hk Hx. unfold sext32. cbv zeta. rewrite land_u32, land_u31, shl_mul, shr_div by lia.
  (* the register is read as a signed number and shifted back: wrap32 (x * p) / p *)
  set (p := 2 ^ Z.max (32 - k) 0). assert (Hp : 0 < p) by (apply Z.pow_pos_nonneg; lia).
  replace (if _ >? 2147483647 then _ else _) with (wrap32 (x * p)) by (unfold wrap32; cbv zeta; split_ifs; lia).
  replace (2 ^ k) with (2 * 2 ^ (k - 1)) in * by (rewrite <- Z.pow_succ_r by lia; f_equal; lia).
  set (h := 2 ^ (k - 1)) in *. set (z := if x >=? h then x - 2 * h else x).
  assert (Hz : - h <= z < h /\ exists m, 0 <= m <= 1 /\ x = z + m * (2 * h))
    by (unfold z; destruct (x >=? h) eqn:E; (split; [lia|]); [exists 1 | exists 0]; lia).
  destruct Hz as (Hz & m & Hm & Ex). clearbody z. destruct (Z.le_gt_cases k 32) as [Hs|Hb].
  - (* the payload sits at the top of the register: x * p and z * p differ by m * 2^32, and z * p fits *)
    assert (Hph : h * p = 2147483648)
      by (unfold h, p; rewrite Z.max_l, <- Z.pow_add_r by lia; replace (k - 1 + (32 - k)) with 31 by lia; reflexivity).
    rewrite (wrap32_congr (x * p) (z * p) m), !wrap32_small by nia. apply Z.div_mul. lia.
  - (* 35 bits: nothing is shifted, and 2 * h is a multiple of 2^32 *)
    assert (Hh : h = 2 ^ (k - 33) * 4294967296)
      by (change 4294967296 with (2 ^ 32); unfold h; rewrite <- Z.pow_add_r by lia; f_equal; lia).
    unfold p. rewrite Z.max_r, Z.mul_1_r, Z.div_1_r by lia. apply (wrap32_congr x z (m * 2 * 2 ^ (k - 33))). lia.
Qed.

(* the loop with [res] already read from the [shift] bits before [bs] *)
Lemma read_s_loop_spec : forall bs n res shift r, terminated bs = true -> (length bs <= n)%nat ->
  0 <= shift -> 0 <= res < 2 ^ shift ->
  read_s_loop n res shift (bs ++ r) = Ok (sext32 (shift + 7 * nbytes bs) (res + 2 ^ shift * leb_raw bs), r).
Proof.
  induction bs as [|b t IH]; intros n res shift r T Ln Hs Hr; [discriminate|].
  destruct n as [|n]; [cbn [length] in Ln; lia|]. cbn [app read_s_loop get_byte bind].
  rewrite land127, lor_shl_add by lia.
  apply terminated_cons in T as [[-> Hb]|[Hb T]]; rewrite land128 by lia.
  - destruct (b <? 128) eqn:E; [|lia]. cbn [leb_raw app]. change (0 =? 0) with true. cbv iota.
    fold (sext32 (shift + 7) (res + b mod 128 * 2 ^ shift)). do 3 f_equal. lia.
  - destruct (b <? 128) eqn:E; [lia|]. change (128 =? 0) with false. cbv iota.
    assert (P : 2 ^ (shift + 7) = 2 ^ shift * 128) by (apply Z.pow_add_r; lia).
    rewrite IH; [|exact T|cbn [length] in Ln; lia|lia|nia].
    rewrite nbytes_cons, P. cbn [leb_raw]. do 3 f_equal; lia.
Qed.

Theorem read_s_spec : forall bs r, wf_leb bs = true -> read_s (bs ++ r) = Ok (sleb_value bs, r).
Proof.
  intros bs r H. apply andb_prop in H as [T L]. unfold read_s.
  rewrite read_s_loop_spec by (unfold nbytes in L; solve [assumption | lia]).
  pose proof (leb_raw_range bs). pose proof (terminated_pos bs T).
  rewrite Z.pow_0_r, Z.mul_1_l, !Z.add_0_l, sext32_spec by lia. reflexivity.
Qed.

Lemma uleb_range bs : 0 <= uleb_value bs < 4294967296.
Proof. unfold uleb_value. lia. Qed.
Lemma sleb_range bs : -2147483648 <= sleb_value bs < 2147483648.
Proof. unfold sleb_value, wrap32. cbv zeta. split_ifs; lia. Qed.
Theorem read_up1_spec : forall bs r, wf_leb bs = true -> read_up1 (bs ++ r) = Ok (ulebp1_value bs, r).
Proof. intros bs r H. unfold read_up1. rewrite read_u_spec by exact H. reflexivity. Qed.

(* non-vacuity: concrete well-formed encodings, including a padded one and a negative one *)
Example wf_examples :
  wf_leb [128; 127] = true /\ wf_leb [255; 255; 255; 255; 127] = true /\
  uleb_value [229; 142; 38] = 624485 /\ sleb_value [192; 187; 120] = -123456 /\
  uleb_value [255; 255; 255; 255; 127] = 4294967295 /\ sleb_value [128; 128; 128; 128; 120] = -2147483648.
Proof. repeat split; reflexivity. Qed.
