(* C02 - the sweep terminates, and everything it yields lies inside the code and is at least one code unit long. *)
From Coq Require Import ZArith List Bool Lia ZifyBool.
Require Import V.Lib.Val V.Lib.Result V.Lib.ListFacts V.Lib.Struct V.gen.Gen_Insn V.Dex.InsnModel V.Dex.SweepModel.
Import ListNotations.
Open Scope Z_scope.

Definition nonneg (l : list Z) : Prop := Forall (fun b => 0 <= b) l.

Lemma take_firstn : forall l n, take l n = firstn (Z.to_nat n) l.
Proof.
  induction l as [|x l IH]; intros n; cbn [take]; [now rewrite firstn_nil|]. destruct (Z.leb_spec n 0).
  - now replace (Z.to_nat n) with 0%nat by lia.
  - replace (Z.to_nat n) with (S (Z.to_nat (n - 1))) by lia. cbn [firstn]. now rewrite IH.
Qed.
Lemma drop_skipn : forall l n, drop l n = skipn (Z.to_nat n) l.
Proof.
  induction l as [|x l IH]; intros n; cbn [drop]; [now rewrite skipn_nil|]. destruct (Z.leb_spec n 0).
  - now replace (Z.to_nat n) with 0%nat by lia.
  - replace (Z.to_nat n) with (S (Z.to_nat (n - 1))) by lia. cbn [skipn]. apply IH.
Qed.
Lemma nonneg_slice : forall l a b, nonneg l -> nonneg (slice l a b).
Proof. intros l a b H. unfold slice. rewrite take_firstn, drop_skipn. apply Forall_firstn_skipn, Forall_firstn_skipn, H. Qed.

(* every object the loop body can produce is at least two bytes long *)
Definition row_len_ok (r : Z * (Z * list Z)) : bool := (fst (snd r) =? cls_Instruction00x) || (2 <=? len_of_class (fst (snd r))).
Lemma tables_len_ok : forallb row_len_ok table_format = true /\ forallb row_len_ok table_optimized = true.
Proof. split; vm_compute; reflexivity. Qed.

Lemma ordinary_len : forall tbl op buff it, forallb row_len_ok tbl = true -> ordinary tbl op buff = Ok it -> 2 <= it_len it.
Proof.
  intros tbl op buff it Ht H. unfold ordinary, get_instruction, lookup_op in H.
  destruct (find (fun r => fst r =? op) tbl) as [[o [c name]]|] eqn:Ef; cbn [option_map snd] in H; [|discriminate].
  apply find_some in Ef. destruct Ef as [Hin _]. rewrite forallb_forall in Ht. specialize (Ht _ Hin). unfold row_len_ok in Ht. cbn [fst snd] in Ht.
  destruct (dec_of_class c buff) as [f|e] eqn:Ed; [|destruct e; discriminate].
  assert (E : it_len it = len_of_class c) by (injection H as <-; reflexivity). rewrite E.
  apply orb_true_iff in Ht. destruct Ht as [Hc|Hl]; [|apply Z.leb_le in Hl; exact Hl].
  apply Z.eqb_eq in Hc. subst c. change (dec_of_class cls_Instruction00x buff) with (dec_Instruction00x buff) in Ed. discriminate.
Qed.

Lemma packed_len : forall buff it, nonneg buff -> packed_switch buff = Ok it -> 2 <= it_len it.
Proof.
  intros buff it Hb H. unfold packed_switch in H.
  destruct (unpack [FU 2; FU 2; FS 4] (slice buff 0 8)) as [[|ident [|size [|fk [|? ?]]]]|e] eqn:Eu; try discriminate.
  pose proof (unpack_unsigned_nonneg 1 (nonneg_slice buff 0 8 Hb) Eu eq_refl eq_refl).
  destruct (read_s32s _ buff 8); [|discriminate].
  assert (E : it_len it = 8 + size * 4) by (injection H as <-; reflexivity). rewrite E. lia.
Qed.
Lemma sparse_len : forall buff it, nonneg buff -> sparse_switch buff = Ok it -> 2 <= it_len it.
Proof.
  intros buff it Hb H. unfold sparse_switch in H.
  destruct (unpack [FU 2; FU 2] (slice buff 0 4)) as [[|ident [|size [|? ?]]]|e] eqn:Eu; try discriminate.
  pose proof (unpack_unsigned_nonneg 1 (nonneg_slice buff 0 4 Hb) Eu eq_refl eq_refl).
  destruct (read_s32s _ buff 4); [|discriminate]. destruct (read_s32s _ buff _); [|discriminate].
  assert (E : it_len it = 4 + size * 4 * 2) by (injection H as <-; reflexivity). rewrite E. lia.
Qed.
Lemma fill_len : forall buff it, nonneg buff -> fill_array_data buff = Ok it -> 2 <= it_len it.
Proof.
  intros buff it Hb H. unfold fill_array_data in H.
  destruct (unpack [FU 2; FU 2; FU 4] (slice buff 0 8)) as [[|ident [|width [|size [|? ?]]]]|e] eqn:Eu; try discriminate.
  pose proof (nonneg_slice buff 0 8 Hb) as Hh.
  pose proof (unpack_unsigned_nonneg 1 Hh Eu eq_refl eq_refl). pose proof (unpack_unsigned_nonneg 2 Hh Eu eq_refl eq_refl).
  assert (E : it_len it = ((size * width + 1) / 2 + 4) * 2) by (injection H as <-; reflexivity). rewrite E.
  assert (0 <= size * width) by nia. lia.
Qed.

(* the constructor is chosen by the first unit alone *)
Lemma sweep_one_cases odex op :
  (forall buff, sweep_one odex buff op = packed_switch buff) \/ (forall buff, sweep_one odex buff op = sparse_switch buff) \/
  (forall buff, sweep_one odex buff op = fill_array_data buff) \/ (forall buff, sweep_one odex buff op = Err InvalidInstruction) \/
  exists tbl op', (tbl = table_format \/ tbl = table_optimized) /\ forall buff, sweep_one odex buff op = ordinary tbl op' buff.
Proof.
  unfold sweep_one. destruct ((255 <? op) && ((Z.land op 255 =? 0) || (Z.land op 255 =? 255))).
  - destruct (op =? 256); [auto|]. destruct (op =? 512); [auto|]. destruct (op =? 768); [auto|]. do 3 right.
    destruct (odex && existsb (fun r => fst r =? op) table_optimized); [right; exists table_optimized, op; auto|].
    destruct (Z.land op 255 =? 255); [right; exists table_format, 255|]; auto.
  - do 4 right. exists table_format, (Z.land op 255). auto.
Qed.
Lemma sweep_one_len {odex buff op it} : nonneg buff -> sweep_one odex buff op = Ok it -> 2 <= it_len it.
Proof.
  intros Hb H. destruct (sweep_one_cases odex op) as [E|[E|[E|[E|(tbl & op' & Ht & E)]]]]; rewrite E in H.
  - exact (packed_len _ _ Hb H).
  - exact (sparse_len _ _ Hb H).
  - exact (fill_len _ _ Hb H).
  - discriminate.
  - apply (ordinary_len tbl op' buff); [destruct Ht as [->| ->]; apply tables_len_ok | exact H].
Qed.

Lemma sweep_step {f odex insn max_idx idx its e} : nonneg insn -> sweep (S f) odex insn max_idx idx = (its, e) ->
  (its = [] /\ e <> Some OutOfFuel) \/
  exists it rest, its = (idx, it) :: rest /\ 2 <= it_len it /\ idx + it_len it <= max_idx /\
                  sweep f odex insn max_idx (idx + it_len it) = (rest, e).
Proof.
  intros Hb H. cbn [sweep] in H.
  destruct (idx <? max_idx); [|left; inversion H; split; [reflexivity|discriminate]].
  destruct (unpack [FU 2] (slice insn idx (idx + 2))) as [[|op [|? ?]]|x]; try (left; inversion H; split; [reflexivity|discriminate]).
  destruct (sweep_one odex (skipn (Z.to_nat idx) insn) op) as [it|x] eqn:Eo; [|left; destruct x; inversion H; split; (reflexivity || discriminate)].
  pose proof (sweep_one_len (proj2 (Forall_firstn_skipn _ Hb)) Eo) as Hl.
  destruct (max_idx <? idx + it_len it) eqn:Eg; [left; inversion H; split; [reflexivity|discriminate]|].
  destruct (sweep f odex insn max_idx (idx + it_len it)) as [rest e2] eqn:Er. inversion H; subst.
  right. exists it, rest. split; [reflexivity|]. split; [exact Hl|]. split; [lia|exact Er].
Qed.

Theorem sweep_inside : forall fuel odex insn max_idx idx its e, nonneg insn ->
  sweep fuel odex insn max_idx idx = (its, e) ->
  Forall (fun p => idx <= fst p /\ fst p + it_len (snd p) <= max_idx /\ 2 <= it_len (snd p)) its.
Proof.
  induction fuel as [|f IH]; intros odex insn max_idx idx its e Hb H; [inversion H; constructor|].
  destruct (sweep_step Hb H) as [[-> _]|(it & rest & -> & Hl & Hm & Hr)]; constructor; [cbn [fst snd]; lia|].
  eapply Forall_impl; [|exact (IH _ _ _ _ _ _ Hb Hr)]. intros p Hp. cbn beta in *. lia.
Qed.

Theorem sweep_fuel_suffices : forall fuel odex insn max_idx idx its e, nonneg insn ->
  0 <= max_idx - idx < 2 * Z.of_nat fuel -> sweep fuel odex insn max_idx idx = (its, e) -> e <> Some OutOfFuel.
Proof.
  induction fuel as [|f IH]; intros odex insn max_idx idx its e Hb Hf H; [lia|].
  destruct (sweep_step Hb H) as [[_ He]|(it & rest & _ & Hl & Hm & Hr)]; [exact He|].
  eapply IH; [exact Hb| |exact Hr]. lia.
Qed.

Theorem get_instructions_terminates : forall odex size insn idx, nonneg insn -> 0 <= idx ->
  snd (get_instructions odex size insn idx) <> Some OutOfFuel.
Proof.
  intros odex size insn idx Hb Hi. unfold get_instructions.
  set (max_idx := if zlen insn <? size * 2 then zlen insn else size * 2).
  destruct (sweep (S (length insn)) odex insn max_idx idx) as [its e] eqn:E. cbn [snd].
  destruct (Z_lt_dec idx max_idx) as [Hlt|Hge].
  - eapply sweep_fuel_suffices; [exact Hb| |exact E].
    assert (max_idx <= zlen insn) by (unfold max_idx; destruct (zlen insn <? size * 2) eqn:Q; lia). unfold zlen in *. lia.
  - cbn [sweep] in E. replace (idx <? max_idx) with false in E by lia. inversion E. discriminate.
Qed.

Theorem get_instructions_inside : forall odex size insn idx its e, nonneg insn ->
  get_instructions odex size insn idx = (its, e) ->
  Forall (fun p => idx <= fst p /\ fst p + it_len (snd p) <= zlen insn /\ fst p + it_len (snd p) <= size * 2 /\
                   2 <= it_len (snd p)) its.
Proof.
  intros odex size insn idx its e Hb H. unfold get_instructions in H.
  set (max_idx := if zlen insn <? size * 2 then zlen insn else size * 2) in H.
  pose proof (sweep_inside _ _ _ _ _ _ _ Hb H) as G.
  assert (max_idx <= zlen insn /\ max_idx <= size * 2) by (unfold max_idx; destruct (zlen insn <? size * 2) eqn:Q; lia).
  eapply Forall_impl; [|exact G]. intros p Hp. cbn beta in *. lia.
Qed.
