(* C35 - more loops of the DEX parser end on every input: the field and method lists of a class_data_item (their
   announced counts do not matter) and nested encoded values (arrays and annotations of any announced size and depth) *)
From Coq Require Import ZArith List Bool Lia.
Require Import V.Lib.Val V.Lib.Result V.Lib.Reader V.Dex.LebModel V.Dex.ClassDataModel V.Dex.EncodedValueModel V.Misc.TermProofs.
Import ListNotations.
Open Scope Z_scope.

Lemma read_u_shorter bs v r : read_u bs = Ok (v, r) -> (length r < length bs)%nat.
Proof. exact (reads_le (read_u_reads True bs)). Qed.

(* the loops run on fuel = the number of bytes left; an element takes at least two bytes, so the fuel is never what ends a
   loop: any two amounts of fuel that are at least the number of bytes left give the same result - whatever count the
   item announces, the loop ends within (bytes left + 1) passes *)
Theorem read_fields_fuel : forall f1 f2 cnt prev bs, (length bs <= f1)%nat -> (length bs <= f2)%nat ->
  read_fields f1 cnt prev bs = read_fields f2 cnt prev bs.
Proof.
  induction f1 as [|f1 IH]; intros [|f2] cnt prev bs H1 H2; cbn [read_fields]; destruct (cnt <=? 0); try reflexivity;
    try (destruct bs; [reflexivity | cbn [length] in *; lia]).
  destruct (read_u bs) as [[d r1]|e] eqn:E1; cbn [bind]; [|reflexivity]. apply read_u_shorter in E1.
  destruct (read_u r1) as [[fl r2]|e] eqn:E2; cbn [bind]; [|reflexivity]. apply read_u_shorter in E2.
  rewrite (IH f2 (cnt - 1) (prev + d) r2) by lia. reflexivity.
Qed.
Theorem read_methods_fuel : forall f1 f2 cnt prev bs, (length bs <= f1)%nat -> (length bs <= f2)%nat ->
  read_methods f1 cnt prev bs = read_methods f2 cnt prev bs.
Proof.
  induction f1 as [|f1 IH]; intros [|f2] cnt prev bs H1 H2; cbn [read_methods]; destruct (cnt <=? 0); try reflexivity;
    try (destruct bs; [reflexivity | cbn [length] in *; lia]).
  destruct (read_u bs) as [[d r1]|e] eqn:E1; cbn [bind]; [|reflexivity]. apply read_u_shorter in E1.
  destruct (read_u r1) as [[fl r2]|e] eqn:E2; cbn [bind]; [|reflexivity]. apply read_u_shorter in E2.
  destruct (read_u r2) as [[co r3]|e] eqn:E3; cbn [bind]; [|reflexivity]. apply read_u_shorter in E3.
  rewrite (IH f2 (cnt - 1) (prev + d) r3) by lia. reflexivity.
Qed.

Definition noo {A} (r : result A) : Prop := r <> Err OutOfFuel.

Lemma get_byte_noo bs : noo (get_byte bs).  Proof. exact (reads_noo (get_byte_reads False bs)). Qed.

(* what one level of nesting needs of the level below *)
Definition level_ok (rec : list Z -> result (ev * list Z)) (f : nat) : Prop :=
  forall bs, (length bs < f)%nat -> noo (rec bs) /\ forall v r, rec bs = Ok (v, r) -> (length r < length bs)%nat.

Section Level.
  Variables (rec : list Z -> result (ev * list Z)) (f : nat).
  Hypothesis L : level_ok rec f.
  Lemma level_reads bs : (length bs < f)%nat -> reads False 1 (rec bs) bs.
  Proof. intros H. destruct (L bs H) as [N S]. exact (reads_intro 1 N S). Qed.
  Lemma parse_values_reads : forall n bs, (length bs < f)%nat -> reads False 0 (parse_values rec n bs) bs.
  Proof.
    induction n as [|n IH]; intros bs Hb; cbn [parse_values]; [apply reads_ret|].
    eapply reads_next; [exact (level_reads bs Hb)|]. intros v r1 H1.
    eapply reads_next; [apply IH; lia|]. intros vs r2 _. apply reads_ret.
  Qed.
  Lemma parse_elements_reads : forall n bs, (length bs < f)%nat -> reads False 0 (parse_elements rec n bs) bs.
  Proof.
    induction n as [|n IH]; intros bs Hb; cbn [parse_elements]; [apply reads_ret|].
    eapply reads_next; [apply read_u_reads|]. intros nm r0 H0.
    eapply reads_next; [apply level_reads; lia|]. intros v r1 H1.
    eapply reads_next; [apply IH; lia|]. intros vs r2 _. apply reads_ret.
  Qed.
  Lemma parse_step_reads val bs : (length bs < f)%nat -> reads False 0 (parse_step rec val bs) bs.
  Proof.
    intros Hb. unfold parse_step.
    destruct (_ && _); [apply reads_ok; cbn [snd read_n]; rewrite skipn_length; lia|].
    destruct (_ && _); [apply reads_ok; cbn [snd read_n]; rewrite skipn_length; lia|].
    destruct (_ =? VALUE_ARRAY).
    { eapply reads_next; [apply read_u_reads|]. intros size r0 H0.
      eapply reads_next; [apply parse_values_reads; lia|]. intros vs r1 _. apply reads_ret. }
    destruct (_ =? VALUE_ANNOTATION).
    { eapply reads_next; [apply read_u_reads|]. intros ty r0 H0.
      eapply reads_next; [apply read_u_reads|]. intros size r1 H1.
      eapply reads_next; [apply parse_elements_reads; lia|]. intros vs r2 _. apply reads_ret. }
    destruct (_ =? VALUE_BYTE).
    { eapply reads_next; [apply get_byte_reads|]. intros b r0 _. apply reads_ret. }
    destruct (_ =? VALUE_NULL); [apply reads_ret|].
    destruct (_ =? VALUE_BOOLEAN); apply reads_ret.
  Qed.
End Level.
Arguments parse_values_reads {rec f} L n bs _.
Arguments parse_step_reads {rec f} L val bs _.

Lemma parse_values_ends rec f : level_ok rec f -> forall n bs, (length bs < f)%nat ->
  noo (parse_values rec n bs) /\ forall vs r, parse_values rec n bs = Ok (vs, r) -> (length r <= length bs)%nat.
Proof. intros L n bs Hb. exact (reads_facts (parse_values_reads L n bs Hb)). Qed.
Lemma parse_step_ends rec f val bs : level_ok rec f -> (length bs < f)%nat ->
  noo (parse_step rec val bs) /\ forall v r, parse_step rec val bs = Ok (v, r) -> (length r <= length bs)%nat.
Proof. intros L Hb. exact (reads_facts (parse_step_reads L val bs Hb)). Qed.

(* an encoded value - arrays and annotations nested to any depth, announcing any number of elements - is read within
   (bytes + 1) levels: the reader returns a value or raises, it does not go on for ever *)
Theorem parse_value_level : forall fuel, level_ok (parse_value fuel) fuel.
Proof.
  induction fuel as [|f IH]; intros bs Hb; [lia|]. apply (reads_facts (n := 1)). cbn [parse_value].
  apply reads_then; [apply get_byte_reads|]. intros b bs1 H1. apply (parse_step_reads IH). lia.
Qed.
Theorem parse_value_ends bs : parse_value (S (length bs)) bs <> Err OutOfFuel.
Proof. apply (parse_value_level (S (length bs)) bs). lia. Qed.
Print Assumptions parse_value_ends.
Lemma parse_array_reads fuel bs : (length bs < fuel)%nat -> reads False 1 (parse_array fuel bs) bs.
Proof.
  intros Hb. unfold parse_array. apply reads_then; [apply read_u_reads|]. intros size r0 H0.
  apply (parse_values_reads (parse_value_level fuel)). lia.
Qed.
Theorem parse_array_ends bs : parse_array (S (length bs)) bs <> Err OutOfFuel.
Proof. eapply reads_noo, parse_array_reads. lia. Qed.
