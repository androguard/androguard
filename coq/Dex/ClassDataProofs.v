(* C05 - read_class_data returns the member lists that any well-formed LEB128 encoding of a class_data_item denotes, by
   read_u_spec applied field after field; field and method lookups return the last entry with the wanted triple (for the
   method cache because its concatenated key is injective on well-formed names), get_class the first of that name *)
From Coq Require Import ZArith List Bool Lia.
Require Import V.Lib.Val V.Lib.Result V.Lib.ListFacts V.Dex.LebSpec V.Dex.LebModel V.Dex.LebProofs V.Dex.LebWrite V.Dex.ClassDataModel.
Import ListNotations.
Open Scope Z_scope.

(* an element as it lies in the file: any well-formed LEB128 encodings (canonical or padded) of its parts *)
Definition fenc := (list Z * list Z)%type.                    (* index difference, access flags *)
Definition menc := (list Z * (list Z * list Z))%type.         (* index difference, access flags, code offset *)
Definition wf_f (e : fenc) : Prop := wf_leb (fst e) = true /\ wf_leb (snd e) = true.
Definition wf_m (e : menc) : Prop := wf_leb (fst e) = true /\ wf_leb (fst (snd e)) = true /\ wf_leb (snd (snd e)) = true.
Definition f_bytes (e : fenc) : list Z := fst e ++ snd e.
Definition m_bytes (e : menc) : list Z := fst e ++ fst (snd e) ++ snd (snd e).
Fixpoint dec_fields (prev : Z) (es : list fenc) : list efield :=
  match es with
  | [] => []
  | e :: r => let idx := prev + uleb_value (fst e) in {| f_idx := idx; f_flags := uleb_value (snd e) |} :: dec_fields idx r
  end.
Fixpoint dec_methods (prev : Z) (es : list menc) : list emethod :=
  match es with
  | [] => []
  | e :: r => let idx := prev + uleb_value (fst e) in
              {| m_idx := idx; m_flags := uleb_value (fst (snd e)); m_code := uleb_value (snd (snd e)) |} :: dec_methods idx r
  end.

Lemma read_fields_done fuel prev bs : read_fields fuel 0 prev bs = Ok ([], bs).
Proof. destruct fuel; reflexivity. Qed.
Lemma read_methods_done fuel prev bs : read_methods fuel 0 prev bs = Ok ([], bs).
Proof. destruct fuel; reflexivity. Qed.

Lemma wf_leb_nonempty {bs} : wf_leb bs = true -> (1 <= length bs)%nat.
Proof. destruct bs; [discriminate | cbn [length]; lia]. Qed.

(* fuel for the bytes of the elements is enough: every element takes at least one *)
Lemma read_fields_exact : forall es fuel prev rest, Forall wf_f es -> (length (flat_map f_bytes es) <= fuel)%nat ->
  read_fields fuel (Z.of_nat (length es)) prev (flat_map f_bytes es ++ rest) = Ok (dec_fields prev es, rest).
Proof.
  induction es as [|e es IH]; intros fuel prev rest Hwf Hf; [apply read_fields_done|].
  inversion Hwf as [|? ? [W1 W2] Hwf']; subst. cbn [flat_map] in Hf. unfold f_bytes at 1 in Hf. rewrite !app_length in Hf.
  pose proof (wf_leb_nonempty W1). destruct fuel as [|f]; [lia|].
  cbn [read_fields length flat_map dec_fields]. replace (Z.of_nat (S (length es)) <=? 0) with false by lia.
  unfold f_bytes at 1. rewrite <- !app_assoc. rewrite (read_u_spec _ _ W1). cbn [bind]. rewrite (read_u_spec _ _ W2). cbn [bind].
  replace (Z.of_nat (S (length es)) - 1) with (Z.of_nat (length es)) by lia.
  rewrite IH; [reflexivity | assumption | lia].
Qed.
Lemma read_methods_exact : forall es fuel prev rest, Forall wf_m es -> (length (flat_map m_bytes es) <= fuel)%nat ->
  read_methods fuel (Z.of_nat (length es)) prev (flat_map m_bytes es ++ rest) = Ok (dec_methods prev es, rest).
Proof.
  induction es as [|e es IH]; intros fuel prev rest Hwf Hf; [apply read_methods_done|].
  inversion Hwf as [|? ? (W1 & W2 & W3) Hwf']; subst. cbn [flat_map] in Hf. unfold m_bytes at 1 in Hf. rewrite !app_length in Hf.
  pose proof (wf_leb_nonempty W1). destruct fuel as [|f]; [lia|].
  cbn [read_methods length flat_map dec_methods]. replace (Z.of_nat (S (length es)) <=? 0) with false by lia.
  unfold m_bytes at 1. rewrite <- !app_assoc. rewrite (read_u_spec _ _ W1). cbn [bind]. rewrite (read_u_spec _ _ W2). cbn [bind].
  rewrite (read_u_spec _ _ W3). cbn [bind].
  replace (Z.of_nat (S (length es)) - 1) with (Z.of_nat (length es)) by lia.
  rewrite IH; [reflexivity | assumption | lia].
Qed.

Record cd_enc := { e_ns : list Z; e_ni : list Z; e_nd : list Z; e_nv : list Z;
                   e_sf : list fenc; e_if : list fenc; e_dm : list menc; e_vm : list menc }.
Definition cd_bytes (e : cd_enc) : list Z :=
  e_ns e ++ e_ni e ++ e_nd e ++ e_nv e ++ flat_map f_bytes (e_sf e) ++ flat_map f_bytes (e_if e) ++
  flat_map m_bytes (e_dm e) ++ flat_map m_bytes (e_vm e).
Definition wf_cd (e : cd_enc) : Prop :=
  wf_leb (e_ns e) = true /\ wf_leb (e_ni e) = true /\ wf_leb (e_nd e) = true /\ wf_leb (e_nv e) = true /\
  uleb_value (e_ns e) = Z.of_nat (length (e_sf e)) /\ uleb_value (e_ni e) = Z.of_nat (length (e_if e)) /\
  uleb_value (e_nd e) = Z.of_nat (length (e_dm e)) /\ uleb_value (e_nv e) = Z.of_nat (length (e_vm e)) /\
  Forall wf_f (e_sf e) /\ Forall wf_f (e_if e) /\ Forall wf_m (e_dm e) /\ Forall wf_m (e_vm e).
Definition dec_cd (e : cd_enc) : class_data :=
  {| cd_sfields := dec_fields 0 (e_sf e); cd_ifields := dec_fields 0 (e_if e);
     cd_dmethods := dec_methods 0 (e_dm e); cd_vmethods := dec_methods 0 (e_vm e) |}.

Theorem read_class_data_exact e rest : wf_cd e -> read_class_data (cd_bytes e ++ rest) = Ok (dec_cd e, rest).
Proof.
  intros (W1 & W2 & W3 & W4 & N1 & N2 & N3 & N4 & F1 & F2 & F3 & F4).
  unfold read_class_data, cd_bytes. rewrite <- !app_assoc.
  rewrite (read_u_spec _ _ W1). cbn [bind]. rewrite (read_u_spec _ _ W2). cbn [bind].
  rewrite (read_u_spec _ _ W3). cbn [bind]. rewrite (read_u_spec _ _ W4). cbn [bind].
  rewrite N1, N2, N3, N4.
  rewrite read_fields_exact by (try assumption; rewrite app_length; lia). cbn [bind].
  rewrite read_fields_exact by (try assumption; rewrite app_length; lia). cbn [bind].
  rewrite read_methods_exact by (try assumption; rewrite app_length; lia). cbn [bind].
  rewrite read_methods_exact by (try assumption; rewrite app_length; lia). cbn [bind].
  reflexivity.
Qed.

Lemma fold_add_from l : forall a, fold_left Z.add l a = a + fold_left Z.add l 0.
Proof. induction l as [|y l IH]; intros a; cbn [fold_left]; [lia|]. rewrite (IH (a + y)), (IH (0 + y)). lia. Qed.
(* the index of the k-th element is the sum of the first k+1 differences: what "index-diff encoded" means *)
Lemma dec_fields_idx : forall es prev k e, nth_error es k = Some e ->
  exists f, nth_error (dec_fields prev es) k = Some f /\
            f_idx f = prev + fold_left Z.add (map (fun x => uleb_value (fst x)) (firstn (S k) es)) 0 /\ f_flags f = uleb_value (snd e).
Proof.
  induction es as [|x es IH]; intros prev k e H; [destruct k; discriminate|]. destruct k as [|k].
  - injection H as ->. eexists. split; [reflexivity|]. cbn. split; [lia | reflexivity].
  - cbn [nth_error] in H. destruct (IH (prev + uleb_value (fst x)) k e H) as (f & Hn & Hi & Hf).
    exists f. split; [exact Hn|]. split; [|exact Hf]. rewrite Hi. cbn [firstn map fold_left].
    rewrite (fold_add_from _ (0 + uleb_value (fst x))). lia.
Qed.

Lemma canonical_exists v : 0 <= v < 4294967296 -> exists bs, wf_leb bs = true /\ uleb_value bs = v.
Proof. intros H. destruct (write_u_spec v H) as (bs & _ & W & V). eauto. Qed.

Lemma str_eqb_eq a b : str_eqb a b = true <-> a = b.
Proof. exact (list_eqb_Z_eq a b). Qed.
Lemma find_last_spec {A} (f : A -> bool) l :
  match find_last f l with
  | Some x => exists l1 l2, l = l1 ++ x :: l2 /\ f x = true /\ forall y, In y l2 -> f y = false
  | None => forall y, In y l -> f y = false
  end.
Proof.
  induction l as [|a l IH]; cbn [find_last]; [intros y []|]. destruct (find_last f l) as [x|].
  - destruct IH as (l1 & l2 & -> & Hx & Hl2). exists (a :: l1), l2. auto.
  - destruct (f a) eqn:Ea; [exists [], l; auto|]. intros y [<-|Hy]; auto.
Qed.
(* a dictionary filled in list order, read with a test that decides P on the entries *)
Lemma find_last_exact {A} {f : A -> bool} (P : A -> Prop) {l} : (forall x, In x l -> (f x = true <-> P x)) ->
  match find_last f l with
  | Some m => P m /\ exists l1 l2, l = l1 ++ m :: l2 /\ forall y, In y l2 -> ~ P y
  | None => forall y, In y l -> ~ P y
  end.
Proof.
  intros F. pose proof (find_last_spec f l) as S. destruct (find_last f l) as [m|].
  - destruct S as (l1 & l2 & -> & Hm & Hl2). split; [apply F; [apply in_elt | exact Hm]|].
    exists l1, l2. split; [reflexivity|]. intros y Hy Py. apply F in Py; [|apply in_or_app; right; right; exact Hy].
    rewrite (Hl2 y Hy) in Py. discriminate.
  - intros y Hy Py. apply F in Py; [|exact Hy]. rewrite (S y Hy) in Py. discriminate.
Qed.

Definition triple (m : member) : str * str * str := (mb_class m, mb_name m, mb_desc m).
Lemma field_pred_spec m c n d :
  str_eqb (mb_class m) c && str_eqb (mb_name m) n && str_eqb (mb_desc m) d = true <-> triple m = (c, n, d).
Proof.
  unfold triple. rewrite !andb_true_iff, !str_eqb_eq. split; [intros [[-> ->] ->]; reflexivity | intros E; injection E as -> -> ->; auto].
Qed.

Theorem lookup_field_exact cs c n d :
  match lookup_field cs c n d with
  | Some m => triple m = (c, n, d) /\
              exists l1 l2, all_fields cs = l1 ++ m :: l2 /\ forall y, In y l2 -> triple y <> (c, n, d)
  | None => forall y, In y (all_fields cs) -> triple y <> (c, n, d)
  end.
Proof. exact (find_last_exact (fun m => triple m = (c, n, d)) (fun m _ => field_pred_spec m c n d)). Qed.

(* the method cache concatenates: that is the triple whenever the class name ends at its first ';' and the
   descriptor starts at the first '(' after it *)
Definition wf_mkey (c n d : str) : Prop := exists body dr, c = body ++ [59] /\ ~ In 59 body /\ ~ In 40 n /\ d = 40 :: dr.
Lemma split_first (x : Z) : forall a a' r r', ~ In x a -> ~ In x a' -> a ++ x :: r = a' ++ x :: r' -> a = a' /\ r = r'.
Proof.
  induction a as [|y a IH]; intros [|y' a'] r r' H H' E; cbn [app] in E.
  - injection E as ->. auto.
  - injection E as -> _. exfalso. apply H'. now left.
  - injection E as -> _. exfalso. apply H. now left.
  - injection E as -> E. destruct (IH a' r r') as [-> ->]; auto; intros X; [apply H | apply H']; now right.
Qed.
Lemma concat_key_injective c n d c' n' d' : wf_mkey c n d -> wf_mkey c' n' d' -> c ++ n ++ d = c' ++ n' ++ d' -> (c, n, d) = (c', n', d').
Proof.
  intros (b & dr & -> & Hb & Hn & ->) (b' & dr' & -> & Hb' & Hn' & ->) E. rewrite <- !app_assoc in E. cbn [app] in E.
  apply split_first in E as [-> E]; auto. apply split_first in E as [-> ->]; auto.
Qed.
Theorem lookup_method_exact cs c n d : wf_mkey c n d ->
  (forall m, In m (all_methods cs) -> wf_mkey (mb_class m) (mb_name m) (mb_desc m)) ->
  match lookup_method cs c n d with
  | Some m => triple m = (c, n, d) /\
              exists l1 l2, all_methods cs = l1 ++ m :: l2 /\ forall y, In y l2 -> triple y <> (c, n, d)
  | None => forall y, In y (all_methods cs) -> triple y <> (c, n, d)
  end.
Proof.
  intros Hq Hall. apply (find_last_exact (fun m => triple m = (c, n, d))). intros m Hm. rewrite str_eqb_eq. unfold triple. split.
  - apply concat_key_injective; auto.
  - intros E. injection E as -> -> ->. reflexivity.
Qed.

Theorem get_class_exact cs name :
  match get_class cs name with
  | Some c => In c cs /\ p_name c = name
  | None => forall c, In c cs -> p_name c <> name
  end.
Proof.
  unfold get_class. destruct (find _ cs) as [c|] eqn:E.
  - apply find_some in E as [H1 H2]. apply str_eqb_eq in H2. auto.
  - intros c Hc Hn. pose proof (find_none _ _ E c Hc) as X. cbn beta in X. apply str_eqb_eq in Hn. congruence.
Qed.
