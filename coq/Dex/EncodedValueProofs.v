(* C04 - the reader of encoded values returns what the DEX format defines. *)
From Coq Require Import ZArith List Bool Lia ZifyBool.
Require Import V.Lib.Val V.Lib.Result V.Lib.ListFacts V.Lib.Fmt V.Lib.Bits V.Dex.LebModel V.Dex.LebSpec V.Dex.LebProofs V.Dex.EncodedValueModel.
Require V.Lib.Struct.
Import ListNotations.
Open Scope Z_scope.

Definition is_bytes (l : list Z) : Prop := Forall (fun b => 0 <= b < 256) l.
(* little-endian value of a byte string, unsigned and signed; [is_bytes], [le_u] and [le_bytes] (below) are the same
   functions as [is_bytes], [lu] and [lbytes] of Lib/Struct.v, whose lemmas apply to them by conversion *)
Fixpoint le_u (l : list Z) : Z := match l with [] => 0 | b :: t => b + 256 * le_u t end.
Definition nbits (l : list Z) : Z := 8 * Z.of_nat (length l).
Definition le_s (l : list Z) : Z :=
  if (nbits l =? 0) then 0 else if 2 ^ (nbits l - 1) <=? le_u l then le_u l - 2 ^ nbits l else le_u l.

Lemma pow_add8 k : 0 <= k -> 2 ^ (k + 8) = 256 * 2 ^ k.
Proof. intros H. rewrite Z.pow_add_r by lia. change (2 ^ 8) with 256. lia. Qed.
Lemma le_u_range : forall l, is_bytes l -> 0 <= le_u l < 2 ^ nbits l.
Proof. exact Struct.lu_range. Qed.

(* _getintvalue accumulates with or/shift; the fields never overlap, so it is the little-endian sum *)
Lemma getint_fold : forall l ret k, is_bytes l -> 0 <= k -> 0 <= ret < 2 ^ k ->
  fst (fold_left (fun '(ret, shift) b => (Z.lor ret (Z.shiftl b shift), shift + 8)) l (ret, k)) = ret + 2 ^ k * le_u l.
Proof.
  induction l as [|b l IH]; intros ret k Hl Hk Hr; cbn [fold_left le_u]; [cbn [fst]; lia|].
  inversion Hl as [|? ? Hb Hl']; subst. assert (0 < 2 ^ k) by (apply Z.pow_pos_nonneg; lia).
  rewrite lor_shl_add by lia. rewrite IH by (rewrite ?pow_add8; try assumption; nia). rewrite pow_add8 by lia. lia.
Qed.
Lemma getintvalue_le : forall l, is_bytes l -> getintvalue l = le_u l.
Proof. intros l H. unfold getintvalue. rewrite getint_fold by (try assumption; simpl; lia). simpl. lia. Qed.

Lemma header_arg ty arg : 0 <= ty < 32 -> 0 <= arg < 8 -> Z.shiftr (ty + 32 * arg) 5 = arg.
Proof. intros Ht Ha. rewrite Z.shiftr_div_pow2 by lia. change (2 ^ 5) with 32. lia. Qed.
Lemma header_type ty arg : 0 <= ty < 32 -> 0 <= arg < 8 -> Z.land (ty + 32 * arg) 31 = ty.
Proof. intros Ht Ha. change 31 with (Z.ones 5). rewrite Z.land_ones by lia. change (2 ^ 5) with 32. lia. Qed.

Lemma read_n_app : forall raw rest, read_n (Z.of_nat (length raw)) (raw ++ rest) = (raw, rest).
Proof.
  intros. unfold read_n. now rewrite Nat2Z.id, firstn_length_app, skipn_length_app.
Qed.

Definition signed_type (ty : Z) : bool := (ty =? VALUE_SHORT) || (ty =? VALUE_INT) || (ty =? VALUE_LONG).
Inductive enc_leaf : ev -> list Z -> Prop :=
| L_int : forall ty arg raw, 2 <= ty < 23 -> 0 <= arg < 8 -> Z.of_nat (length raw) = arg + 1 -> is_bytes raw ->
    enc_leaf (EInt ty (if signed_type ty then le_s raw else le_u raw)) ((ty + 32 * arg) :: raw)
| L_ref : forall ty arg raw, 23 <= ty <= 27 -> 0 <= arg < 8 -> Z.of_nat (length raw) = arg + 1 -> is_bytes raw ->
    enc_leaf (ERef ty (le_u raw)) ((ty + 32 * arg) :: raw)
| L_byte : forall arg b, 0 <= arg < 8 -> 0 <= b < 256 -> enc_leaf (EByte (if 127 <? b then b - 256 else b)) [0 + 32 * arg; b]
| L_null : forall arg, 0 <= arg < 8 -> enc_leaf ENull [30 + 32 * arg]
| L_bool : forall arg, 0 <= arg < 8 -> enc_leaf (EBool (negb (arg =? 0))) [31 + 32 * arg].

Lemma parse_leaf : forall e bs, enc_leaf e bs -> forall f rest, parse_value (S f) (bs ++ rest) = Ok (e, rest).
Proof.
  intros e bs H f rest. destruct H as [ty arg raw Ht Ha Hl Hb | ty arg raw Ht Ha Hl Hb | arg b Ha Hb | arg Ha | arg Ha];
    cbn [parse_value app get_byte bind]; unfold parse_step; rewrite header_arg, header_type by lia; [| |reflexivity..].
  - replace ((VALUE_SHORT <=? ty) && (ty <? VALUE_STRING)) with true by (unfold VALUE_SHORT, VALUE_STRING; lia).
    rewrite <- Hl, read_n_app, getintvalue_le by exact Hb. unfold signed_type, le_s, nbits.
    destruct ((ty =? VALUE_SHORT) || (ty =? VALUE_INT) || (ty =? VALUE_LONG)); cbn [andb]; [|reflexivity].
    replace (8 * Z.of_nat (length raw) =? 0) with false by lia. reflexivity.
  - replace ((VALUE_SHORT <=? ty) && (ty <? VALUE_STRING)) with false by (unfold VALUE_STRING; lia).
    replace ((VALUE_STRING <=? ty) && (ty <=? VALUE_ENUM)) with true by (unfold VALUE_STRING, VALUE_ENUM; lia).
    rewrite <- Hl, read_n_app, getintvalue_le by exact Hb. reflexivity.
Qed.

Inductive encodes : nat -> ev -> list Z -> Prop :=
| enc_of_leaf : forall d e bs, enc_leaf e bs -> encodes d e bs
| enc_arr : forall d arg es bss sz, 0 <= arg < 8 -> wf_leb sz = true -> uleb_value sz = Z.of_nat (length es) ->
    Forall2 (encodes d) es bss -> encodes (S d) (EArr es) ((28 + 32 * arg) :: sz ++ concat bss)
| enc_ann : forall d arg ty tybs names vs bss sz, 0 <= arg < 8 -> wf_leb tybs = true -> uleb_value tybs = ty ->
    wf_leb sz = true -> uleb_value sz = Z.of_nat (length vs) ->
    Forall (fun nb => wf_leb nb = true) names -> length names = length vs -> Forall2 (encodes d) vs bss ->
    encodes (S d) (EAnn ty (combine (map uleb_value names) vs))
            ((29 + 32 * arg) :: tybs ++ sz ++ concat (map (fun p => fst p ++ snd p) (combine names bss))).

Lemma encodes_nonempty : forall d e bs, encodes d e bs -> (0 < length bs)%nat.
Proof. intros d e bs H. destruct H as [d e bs H| |]; [destruct H|..]; cbn [length]; lia. Qed.
Lemma values_length : forall d es bss, Forall2 (encodes d) es bss -> (length es <= length (concat bss))%nat.
Proof.
  intros d es bss H. induction H as [|e bs es bss He Hes IH]; [cbn; lia|]. cbn [length concat]. rewrite app_length.
  pose proof (encodes_nonempty _ _ _ He). lia.
Qed.
Lemma cnt_exact : forall n bs rest, (n <= length bs)%nat -> cnt (Z.of_nat n) (bs ++ rest) = n.
Proof. intros n bs rest H. unfold cnt. rewrite app_length. rewrite Z.min_l by lia. apply Nat2Z.id. Qed.
Lemma elements_length : forall d vs bss (names : list (list Z)), Forall2 (encodes d) vs bss -> length names = length vs ->
  (length vs <= length (concat (map (fun p => fst p ++ snd p) (combine names bss))))%nat.
Proof.
  intros d vs bss names H. revert names. induction H as [|e bs vs bss He Hes IH]; intros names Hl; [cbn; lia|].
  destruct names as [|nb names]; [discriminate|]. cbn [length combine map concat fst snd]. rewrite !app_length.
  pose proof (encodes_nonempty _ _ _ He). specialize (IH names ltac:(cbn [length] in Hl; lia)). lia.
Qed.
Lemma parse_values_spec : forall (rec : list Z -> result (ev * list Z)) d es bss rest,
  (forall e bs, encodes d e bs -> forall r, rec (bs ++ r) = Ok (e, r)) -> Forall2 (encodes d) es bss ->
  parse_values rec (length es) (concat bss ++ rest) = Ok (es, rest).
Proof.
  intros rec d es bss rest Hrec H. induction H as [|e bs es bss He Hes IH]; [reflexivity|].
  cbn [length parse_values concat]. rewrite <- app_assoc. rewrite (Hrec e bs He). cbn [bind]. rewrite IH. reflexivity.
Qed.
Lemma parse_elements_spec : forall (rec : list Z -> result (ev * list Z)) d vs bss names rest,
  (forall e bs, encodes d e bs -> forall r, rec (bs ++ r) = Ok (e, r)) -> Forall2 (encodes d) vs bss ->
  Forall (fun nb => wf_leb nb = true) names -> length names = length vs ->
  parse_elements rec (length vs) (concat (map (fun p => fst p ++ snd p) (combine names bss)) ++ rest)
  = Ok (combine (map uleb_value names) vs, rest).
Proof.
  intros rec d vs bss names rest Hrec H. revert names. induction H as [|e bs vs bss He Hes IH]; intros names Hn Hl.
  - destruct names; [reflexivity|discriminate].
  - destruct names as [|nb names]; [discriminate|]. inversion Hn; subst. cbn [length] in Hl.
    cbn [length parse_elements combine map concat fst snd]. rewrite <- !app_assoc. rewrite read_u_spec by assumption. cbn [bind].
    rewrite (Hrec e bs He). cbn [bind]. rewrite IH by (try assumption; lia). reflexivity.
Qed.

Lemma parse_value_S : forall f bs, parse_value (S f) bs = (do '(val, bs) <- get_byte bs; parse_step (parse_value f) val bs).
Proof. reflexivity. Qed.
Lemma parse_step_arr : forall rec arg bs, 0 <= arg < 8 ->
  parse_step rec (28 + 32 * arg) bs =
  (do '(size, bs) <- read_u bs; do '(vs, bs) <- parse_values rec (cnt size bs) bs; Ok (EArr vs, bs)).
Proof. intros rec arg bs Ha. unfold parse_step. rewrite header_arg, header_type by lia. reflexivity. Qed.
Lemma parse_step_ann : forall rec arg bs, 0 <= arg < 8 ->
  parse_step rec (29 + 32 * arg) bs =
  (do '(ty, bs) <- read_u bs; do '(size, bs) <- read_u bs;
   do '(es, bs) <- parse_elements rec (cnt size bs) bs; Ok (EAnn ty es, bs)).
Proof. intros rec arg bs Ha. unfold parse_step. rewrite header_arg, header_type by lia. reflexivity. Qed.

Theorem parse_encoded : forall d e bs, encodes d e bs -> forall rest, parse_value (S d) (bs ++ rest) = Ok (e, rest).
Proof.
  induction d as [|d IH]; intros e bs H rest;
    inversion H as [d0 e0 bs0 Hl | d0 arg es bss sz Ha Hw Hv Hf | d0 arg ty tybs names vs bss sz Ha Hw1 Hv1 Hw2 Hv2 Hn Hlen Hf]; subst;
    try (apply parse_leaf; assumption).
  - rewrite parse_value_S. cbn [app get_byte bind]. rewrite (parse_step_arr _ arg) by exact Ha.
    rewrite <- app_assoc. rewrite read_u_spec by exact Hw. cbn [bind]. rewrite Hv, (cnt_exact _ _ _ (values_length _ _ _ Hf)).
    now rewrite (parse_values_spec _ d es bss rest IH Hf).
  - rewrite parse_value_S. cbn [app get_byte bind]. rewrite (parse_step_ann _ arg) by exact Ha.
    rewrite <- !app_assoc. rewrite read_u_spec by exact Hw1. cbn [bind]. rewrite read_u_spec by exact Hw2. cbn [bind].
    rewrite Hv2, (cnt_exact _ _ _ (elements_length _ _ _ names Hf Hlen)).
    now rewrite (parse_elements_spec _ d vs bss names rest IH Hf Hn Hlen).
Qed.

Fixpoint le_bytes (n : nat) (x : Z) : list Z := match n with O => [] | S n' => x mod 256 :: le_bytes n' (x / 256) end.
Lemma le_bytes_ok : forall n x, is_bytes (le_bytes n x) /\ length (le_bytes n x) = n.
Proof. exact Struct.lbytes_ok. Qed.
Theorem unsigned_roundtrip : forall n x, 0 <= x < 2 ^ (8 * Z.of_nat n) -> le_u (le_bytes n x) = x.
Proof. exact Struct.lu_lbytes. Qed.
Theorem signed_roundtrip : forall n v, (0 < n)%nat -> - 2 ^ (8 * Z.of_nat n - 1) <= v < 2 ^ (8 * Z.of_nat n - 1) ->
  le_s (le_bytes n (v mod 2 ^ (8 * Z.of_nat n))) = v.
Proof.
  intros n v Hn Hv. destruct (le_bytes_ok n (v mod 2 ^ (8 * Z.of_nat n))) as [_ Hlen].
  unfold le_s, nbits. rewrite Hlen. set (N := 8 * Z.of_nat n) in *. assert (HN : 8 <= N) by (unfold N; lia).
  assert (Hp : 2 ^ N = 2 * 2 ^ (N - 1)) by (replace N with (1 + (N - 1)) at 1 by lia; rewrite Z.pow_add_r by lia; reflexivity).
  assert (Hpos : 0 < 2 ^ (N - 1)) by (apply Z.pow_pos_nonneg; lia).
  rewrite unsigned_roundtrip by (apply Z.mod_pos_bound; lia). replace (N =? 0) with false by lia.
  destruct (Z.ltb_spec v 0).
  - rewrite <- (Z.mod_unique_pos v (2 ^ N) (-1) (v + 2 ^ N)) by lia. destruct (Z.leb_spec (2 ^ (N - 1)) (v + 2 ^ N)); lia.
  - rewrite Z.mod_small by lia. destruct (Z.leb_spec (2 ^ (N - 1)) v); lia.
Qed.

Theorem bind_static_in_order : forall n vs k, (length vs <= n)%nat -> (k < n)%nat ->
  nth k (bind_static n vs) None = nth_error vs k.
Proof.
  intros n vs k Hl Hk. unfold bind_static. replace (length vs <=? n)%nat with true by (symmetry; apply Nat.leb_le; exact Hl).
  destruct (nth_error vs k) as [v|] eqn:E.
  - rewrite app_nth1 by (rewrite map_length; apply nth_error_Some; congruence). apply nth_error_nth, map_nth_error, E.
  - apply nth_error_None in E. rewrite app_nth2 by (rewrite map_length; exact E). apply nth_repeat.
Qed.

Theorem printed_int_denotes : forall proto v, proto <> 66 ->
  (if v <? 0 then match print_int_init proto v with 45 :: t => - text_value 10 t | _ => 0 end
   else text_value 10 (print_int_init proto v)) = v.
Proof. intros proto v Hp. unfold print_int_init. replace (proto =? 66) with false by (symmetry; apply Z.eqb_neq; exact Hp). apply sdec_value. Qed.
