(* C07 - determine_load_order never runs out of fuel (every round removes a key) and, on the dependency table translated from
   the source (coq/gen/Gen_MapDeps.v), gives a total order that respects every dependency: by evaluation.  The parse order, the
   lookup by type and the loaded state ignore the order of the map list (Section SortFacts). *)
From Coq Require Import ZArith List Bool Lia Permutation Sorted.
Require Import V.Lib.Val V.Lib.Result V.Lib.ListFacts V.Dex.MapOrderModel V.gen.Gen_MapDeps.
Import ListNotations.
Open Scope Z_scope.

Lemma first_ready_in t k : first_ready t = Some k -> In (k, []) t.
Proof.
  induction t as [|[k' ds] t IH]; [discriminate|]. cbn [first_ready]. destruct ds.
  - intros E. injection E as ->. now left.
  - intros E. right. now apply IH.
Qed.
Lemma pop_key_shrinks t k ds : In (k, ds) t -> (length (pop_key k t) < length t)%nat.
Proof. intros H. unfold pop_key. apply (filter_length_lt H). cbn [fst]. now rewrite Z.eqb_refl. Qed.
Lemma discard_length k t : length (discard k t) = length t.
Proof. unfold discard. apply map_length. Qed.

Lemma order_loop_fuel : forall fuel t acc, (length t <= fuel)%nat -> order_loop fuel t acc <> Err OutOfFuel.
Proof.
  induction fuel as [|f IH]; intros t acc Hl.
  - destruct t; [discriminate | cbn [length] in Hl; lia].
  - destruct t as [|e t]; [discriminate|]. cbn [order_loop]. destruct (first_ready (e :: t)) as [k|] eqn:E; [|discriminate].
    apply IH. rewrite discard_length. apply first_ready_in in E. apply pop_key_shrinks in E. lia.
Qed.
Lemma determine_load_order_ends t : determine_load_order t <> Err OutOfFuel.
Proof. apply order_loop_fuel. lia. Qed.

Definition before (order : list Z) (a b : Z) : bool :=
  match index_of a order, index_of b order with Some i, Some j => i <? j | _, _ => false end.
Definition respects (t : table) (order : list Z) : bool :=
  forallb (fun e => forallb (fun d => before order d (fst e)) (snd e)) t.
Fixpoint distinct (l : list Z) : bool :=
  match l with [] => true | x :: r => negb (existsb (Z.eqb x) r) && distinct r end.
Definition covers (order types : list Z) : bool := forallb (fun ty => existsb (Z.eqb ty) order) types.

Lemma table_order_ok :
  exists order, determine_load_order dep_table = Ok order /\ respects dep_table order = true /\
                distinct order = true /\ covers order map_types = true /\ covers order (map fst dep_table) = true.
Proof. eexists. split; [vm_compute; reflexivity|]. repeat split; vm_compute; reflexivity. Qed.

Lemma distinct_NoDup l : distinct l = true -> NoDup l.
Proof.
  induction l as [|x l IH]; [constructor|]. cbn [distinct]. intros H. apply andb_true_iff in H as [H1 H2]. constructor; [|auto].
  apply negb_true_iff, existsb_eqb_nIn in H1. exact H1.
Qed.

(* sorting distinct keys forgets the input order: a sorted permutation is unique *)
Section SortFacts.
  Variable A : Type.
  Variable key : A -> Z.
  Definition le_key (a b : A) : Prop := key a <= key b.
  Lemma insert_perm x l : Permutation (insert key x l) (x :: l).
  Proof.
    induction l as [|y l IH]; [reflexivity|]. cbn [insert]. destruct (key x <=? key y); [reflexivity|].
    rewrite IH. apply perm_swap.
  Qed.
  Lemma isort_perm l : Permutation (isort key l) l.
  Proof. induction l as [|x l IH]; [reflexivity|]. cbn [isort fold_right]. fold (isort key l). rewrite insert_perm. now constructor. Qed.
  Lemma insert_sorted x l : StronglySorted le_key l -> StronglySorted le_key (insert key x l).
  Proof.
    induction 1 as [|y l Hs IH Hall]; [repeat constructor|]. cbn [insert]. destruct (key x <=? key y) eqn:E.
    - apply Z.leb_le in E. constructor; [constructor; assumption|]. constructor; [exact E|].
      rewrite Forall_forall in *. intros z Hz. specialize (Hall z Hz). unfold le_key in *. lia.
    - apply Z.leb_gt in E. constructor; [exact IH|]. rewrite Forall_forall in *. intros z Hz.
      apply (Permutation_in _ (insert_perm x l)) in Hz. destruct Hz as [<-|Hz]; [unfold le_key; lia | auto].
  Qed.
  Lemma isort_sorted l : StronglySorted le_key (isort key l).
  Proof. induction l as [|x l IH]; [constructor|]. cbn [isort fold_right]. now apply insert_sorted. Qed.

  Lemma sorted_perm_unique : forall l l', StronglySorted le_key l -> StronglySorted le_key l' -> Permutation l l' ->
    NoDup (map key l) -> l = l'.
  Proof.
    induction l as [|a l IH]; intros l' Hs Hs' Hp Hnd.
    - apply Permutation_nil in Hp. now subst.
    - destruct l' as [|b l']; [apply Permutation_sym, Permutation_nil in Hp; discriminate|].
      inversion Hs as [|? ? Hsl Hal]; subst. inversion Hs' as [|? ? Hsl' Hal']; subst.
      assert (Hb : In b (a :: l)) by (apply (Permutation_in _ (Permutation_sym Hp)); now left).
      assert (Ha : In a (b :: l')) by (apply (Permutation_in _ Hp); now left).
      assert (E : key a = key b).
      { rewrite Forall_forall in Hal, Hal'. unfold le_key in *.
        destruct Hb as [->|Hb]; [reflexivity|]. destruct Ha as [->|Ha]; [reflexivity|]. specialize (Hal _ Hb). specialize (Hal' _ Ha). lia. }
      assert (a = b) by (apply (NoDup_map_inj key (a :: l)); auto; now left). subst b.
      f_equal. apply IH; auto.
      + now apply Permutation_cons_inv in Hp.
      + cbn [map] in Hnd. now inversion Hnd.
  Qed.
  Theorem isort_order_free l l' : Permutation l l' -> NoDup (map key l) -> isort key l = isort key l'.
  Proof.
    intros Hp Hnd. apply sorted_perm_unique; try apply isort_sorted.
    - rewrite isort_perm, isort_perm. exact Hp.
    - apply (Permutation_NoDup (l := map key l)); [|exact Hnd]. apply Permutation_map, Permutation_sym, isort_perm.
  Qed.
End SortFacts.

Lemma index_of_nth x : forall order i, index_of x order = Some i -> 0 <= i /\ nth_error order (Z.to_nat i) = Some x.
Proof.
  induction order as [|z order IH]; intros i; [discriminate|]. cbn [index_of]. destruct (Z.eqb_spec x z) as [->|_].
  - intros E. injection E as <-. split; [lia | reflexivity].
  - destruct (index_of x order) as [j|]; [|discriminate]. cbn [option_map]. intros E. injection E as <-.
    destruct (IH j eq_refl) as [Hj Hn]. split; [lia|]. rewrite Z2Nat.inj_succ by exact Hj. exact Hn.
Qed.
Lemma index_of_inj {order x y i} : index_of x order = Some i -> index_of y order = Some i -> x = y.
Proof. intros Hx Hy. apply index_of_nth in Hx as [_ Hx], Hy as [_ Hy]. congruence. Qed.

Theorem parse_order_free order items items' : Permutation items items' -> NoDup (map fst items) ->
  parse_order order items = parse_order order items'.
Proof.
  intros Hp Hnd. unfold parse_order. rewrite <- (forallb_perm _ Hp).
  destruct (forallb _ items) eqn:Hk; [|reflexivity]. f_equal. apply isort_order_free; [exact Hp|].
  rewrite forallb_forall in Hk. apply (NoDup_map_via fst); [|exact Hnd]. intros a b Ha Hb E. unfold rank in E. apply Hk in Ha, Hb.
  destruct (index_of (fst a) order) as [i|] eqn:Ea; [|discriminate]. destruct (index_of (fst b) order) as [j|] eqn:Eb; [|discriminate].
  subst j. exact (index_of_inj Ea Eb).
Qed.

Lemma find_type_free (f : map_item -> bool) (items items' : list map_item) :
  (forall a b, f a = true -> f b = true -> fst a = fst b) ->
  Permutation items items' -> NoDup (map fst items) -> find f items = find f items'.
Proof.
  intros Hf Hp Hnd.
  assert (Hnd' : NoDup (map fst items')) by (eapply Permutation_NoDup; [apply Permutation_map, Hp | exact Hnd]).
  destruct (find f items) as [mi|] eqn:E1; destruct (find f items') as [mi'|] eqn:E2; try reflexivity.
  - apply find_some in E1 as [H1 K1], E2 as [H2 K2]. f_equal.
    apply (NoDup_map_inj fst items'); auto. eapply Permutation_in; eauto.
  - apply find_some in E1 as [H1 K1]. pose proof (find_none _ _ E2 mi (Permutation_in _ Hp H1)) as X. congruence.
  - apply find_some in E2 as [H2 K2]. pose proof (find_none _ _ E1 mi' (Permutation_in _ (Permutation_sym Hp) H2)) as X. congruence.
Qed.
Theorem get_item_type_free (items items' : list map_item) ty : Permutation items items' -> NoDup (map fst items) ->
  get_item_type items ty = get_item_type items' ty.
Proof.
  intros Hp Hnd. unfold get_item_type. apply find_type_free; auto.
  intros a b Ha Hb. apply Z.eqb_eq in Ha, Hb. congruence.
Qed.

(* whatever parsing one entry does to the class manager: the state after all entries is the same *)
Section Parse.
  Variable state : Type.
  Variable parse_step : state -> map_item -> state.
  Definition load_all (order : list Z) (items : list map_item) (s0 : state) : result state :=
    match parse_order order items with Ok l => Ok (fold_left parse_step l s0) | Err e => Err e end.
  Theorem load_all_free order items items' s0 : Permutation items items' -> NoDup (map fst items) ->
    load_all order items s0 = load_all order items' s0.
  Proof. intros Hp Hnd. unfold load_all. now rewrite (parse_order_free order items items' Hp Hnd). Qed.
End Parse.
