(* C17 - proofs about coq/Dex/RenameModel.v: the full statement is false of the model (string indices are shared);
   it holds for every operation sequence when no two items or constants use the same string index *)
From Coq Require Import ZArith List Bool Lia ZifyBool.
Require Import V.Lib.ListFacts V.Lib.Val V.Lib.Result V.Dex.RenameModel.
Import ListNotations.
Open Scope Z_scope.

Lemma upd_length {A} (l : list A) i x : length (upd l i x) = length l.
Proof. exact (set_nth_length l i x). Qed.
Lemma updz_length {A} (l : list A) i x : length (updz l i x) = length l.
Proof. unfold updz. destruct (i <? 0); [reflexivity | apply upd_length]. Qed.
Lemma nth_upd_same {A} (l : list A) i x d : (i < length l)%nat -> nth i (upd l i x) d = x.
Proof. exact (nth_set_nth_same l i x d). Qed.
Lemma nth_upd_other {A} (l : list A) i j x d : i <> j -> nth j (upd l i x) d = nth j l d.
Proof. exact (nth_set_nth_other l i j x d). Qed.
(* the tables of a state are as long as the lists of the file: m is the list whose indices are the valid ones *)
Lemma nthz_updz_same {A B} (l : list A) (m : list B) i x d : length l = length m -> valid m i = true -> nthz (updz l i x) i d = x.
Proof. unfold valid, nthz, updz. intros E H. replace (i <? 0) with false by lia. apply nth_upd_same. lia. Qed.
Lemma nthz_updz_other {A} (l : list A) i j x d : i <> j -> nthz (updz l i x) j d = nthz l j d.
Proof.
  intros H. unfold nthz, updz. destruct (i <? 0) eqn:Ei; [reflexivity|]. destruct (j <? 0) eqn:Ej; [reflexivity|].
  apply nth_upd_other. lia.
Qed.
Lemma nthz_invalid {A B} (l : list A) (m : list B) k d : length l = length m -> valid m k = false -> nthz l k d = d.
Proof. unfold valid, nthz. intros E H. destruct (k <? 0) eqn:K; [reflexivity|]. apply nth_overflow. lia. Qed.
Lemma nthz_nth {A} (l : list A) k d : valid l k = true -> nthz l k d = nth (Z.to_nat k) l d.
Proof. unfold valid, nthz. intros H. now replace (k <? 0) with false by lia. Qed.
Lemma nth_map_nthz {A B} (f : A -> B) l k d e : valid l k = true -> nth (Z.to_nat k) (map f l) e = f (nthz l k d).
Proof.
  intros H. rewrite nthz_nth by exact H. rewrite (nth_indep _ e (f d)) by (unfold valid in H; rewrite map_length; lia). apply map_nth.
Qed.
Lemma nthz_map {A B} (f : A -> B) (l : list A) k d : nthz (map f l) k (f d) = f (nthz l k d).
Proof. unfold nthz. destruct (k <? 0); [reflexivity | apply map_nth]. Qed.
Lemma nthz_map_indices {A B} (l : list A) (f : Z -> B) k d : valid l k = true -> nthz (map f (indices l)) k d = f k.
Proof.
  unfold valid, nthz, indices. intros H. replace (k <? 0) with false by lia. rewrite map_map.
  rewrite nth_indep with (d' := f (Z.of_nat (Z.to_nat k))) by (rewrite map_length, seq_length; lia).
  rewrite (map_nth (fun x => f (Z.of_nat x)) (seq 0 (length l)) (Z.to_nat k)). rewrite seq_nth by lia. f_equal. lia.
Qed.

Lemma assoc_hook i v h j : assoc j ((i, v) :: h) = if i =? j then Some v else assoc j h.
Proof. reflexivity. Qed.

(* two methods called alike (string index 3) in two classes; rename the first, rename a class, look at the second;
   and a constant whose text is a renamed method's name *)
Definition w_dex : dexfile := {| d_classes := [1; 2]; d_methods := [(0, 3); (1, 3)]; d_fields := []; d_consts := [3] |}.
Definition w_ops : list op := [RenM 0 100; RenC 1 101; QueryM 1; QueryS 0].
Lemma full_statement_refuted : run w_dex (init w_dex) w_ops <> spec_run w_dex (spec_init w_dex) w_ops.
Proof. vm_compute. discriminate. Qed.
Lemma refutation_values :
  run w_dex (init w_dex) w_ops = [None; None; Some 100; Some 100] /\ spec_run w_dex (spec_init w_dex) w_ops = [None; None; Some 3; Some 3].
Proof. split; vm_compute; reflexivity. Qed.

Definition all_idx (d : dexfile) : list Z := map snd (d_methods d) ++ map snd (d_fields d) ++ d_classes d ++ d_consts d.
Definition unshared (d : dexfile) : Prop := NoDup (all_idx d).
(* the users of string indices, and where each one's index stands in all_idx *)
Inductive item := Meth (k : Z) | Fld (k : Z) | Cls (k : Z) | Cst (k : Z).
Definition ok (d : dexfile) (a : item) : bool :=
  match a with Meth k => valid (d_methods d) k | Fld k => valid (d_fields d) k | Cls k => valid (d_classes d) k | Cst k => valid (d_consts d) k end.
Definition sidx (d : dexfile) (a : item) : Z :=
  match a with Meth k => m_name_idx d k | Fld k => f_name_idx d k | Cls k => c_desc_idx d k | Cst k => nthz (d_consts d) k (-1) end.
Definition pos (d : dexfile) (a : item) : nat :=
  match a with
  | Meth k => Z.to_nat k
  | Fld k => length (map snd (d_methods d)) + Z.to_nat k
  | Cls k => length (map snd (d_methods d)) + (length (map snd (d_fields d)) + Z.to_nat k)
  | Cst k => length (map snd (d_methods d)) + (length (map snd (d_fields d)) + (length (d_classes d) + Z.to_nat k))
  end.
Lemma at_pos d a : ok d a = true -> nth (pos d a) (all_idx d) (-9) = sidx d a /\ (pos d a < length (all_idx d))%nat.
Proof.
  intros H. unfold all_idx. split.
  - destruct a as [k|k|k|k]; cbn [ok pos sidx] in *; rewrite ?app_nth2_plus.
    + rewrite app_nth1 by (unfold valid in H; rewrite map_length; lia). apply nth_map_nthz, H.
    + rewrite app_nth1 by (unfold valid in H; rewrite map_length; lia). apply nth_map_nthz, H.
    + rewrite app_nth1 by (unfold valid in H; lia). rewrite <- (map_id (d_classes d)) at 1. apply (nth_map_nthz (fun x => x)), H.
    + rewrite <- (map_id (d_consts d)) at 1. apply (nth_map_nthz (fun x => x)), H.
  - rewrite !app_length. destruct a; cbn [ok pos] in *; rewrite ?map_length; unfold valid in H; lia.
Qed.
Lemma pos_inj d a b : ok d a = true -> ok d b = true -> pos d a = pos d b -> a = b.
Proof. destruct a, b; cbn [ok pos]; unfold valid; rewrite ?map_length; intros; first [f_equal; lia | exfalso; lia]. Qed.
Lemma sidx_inj d a b : unshared d -> ok d a = true -> ok d b = true -> sidx d a = sidx d b -> a = b.
Proof.
  intros U Ha Hb E. destruct (at_pos d a Ha) as [Ea La], (at_pos d b Hb) as [Eb Lb]. apply (pos_inj d a b Ha Hb).
  apply (proj1 (NoDup_nth (all_idx d) (-9)) U); [exact La | exact Lb | congruence].
Qed.

Lemma get_string_hooked s1 s i v j : hooks s1 = (i, v) :: hooks s -> get_string s1 j = if i =? j then v else get_string s j.
Proof. intros H. unfold get_string. rewrite H. cbn [assoc]. destruct (i =? j); reflexivity. Qed.
Lemma hook_same s i v : assoc i (hook s i v) = Some v.
Proof. unfold hook. now rewrite assoc_hook, Z.eqb_refl. Qed.
Lemma hook_other d s a v b i j : unshared d -> ok d a = true -> ok d b = true -> a <> b -> sidx d a = i -> sidx d b = j ->
  assoc j (hook s i v) = assoc j (hooks s).
Proof.
  intros U Ha Hb N <- <-. unfold hook. rewrite assoc_hook.
  destruct (Z.eqb_spec (sidx d a) (sidx d b)) as [E|_]; [destruct (N (sidx_inj d a b U Ha Hb E)) | reflexivity].
Qed.

Record Inv (d : dexfile) (s : state) (n : names) : Prop := {
  L1 : length (mid_name s) = length (d_methods d); L2 : length (em_name s) = length (d_methods d);
  L3 : length (fid_name s) = length (d_fields d); L4 : length (ef_name s) = length (d_fields d);
  L5 : length (cls_name s) = length (d_classes d);
  L6 : length (n_m n) = length (d_methods d); L7 : length (n_f n) = length (d_fields d); L8 : length (n_c n) = length (d_classes d);
  IM : forall k, valid (d_methods d) k = true ->
       nthz (mid_name s) k (-1) = nthz (n_m n) k (-1) /\ nthz (em_name s) k (-1) = nthz (n_m n) k (-1) /\
       get_string s (m_name_idx d k) = nthz (n_m n) k (-1);
  IFl : forall k, valid (d_fields d) k = true ->
       nthz (fid_name s) k (-1) = nthz (n_f n) k (-1) /\ nthz (ef_name s) k (-1) = nthz (n_f n) k (-1) /\
       get_string s (f_name_idx d k) = nthz (n_f n) k (-1);
  IC : forall c, valid (d_classes d) c = true ->
       nthz (cls_name s) c (-1) = nthz (n_c n) c (-1) /\ get_string s (c_desc_idx d c) = nthz (n_c n) c (-1);
  IS : forall j, valid (d_consts d) j = true -> get_string s (nthz (d_consts d) j (-1)) = nthz (d_consts d) j (-1) }.

Lemma init_inv d : Inv d (init d) (spec_init d).
Proof.
  constructor; cbn [init spec_init mid_name em_name fid_name ef_name cls_name n_m n_f n_c].
  1-8: first [now rewrite map_length | reflexivity].
  - intros k _. repeat split. symmetry. exact (nthz_map snd (d_methods d) k (0, -1)).
  - intros k _. repeat split. symmetry. exact (nthz_map snd (d_fields d) k (0, -1)).
  - intros c _. split; reflexivity.
  - intros j _. reflexivity.
Qed.

(* reload and the first get_name: the second table takes the entry of the first at k *)
Lemma reload_keeps {B} (m : list B) [a b sp : list Z] [P : Z -> Prop] k : length b = length m ->
  (forall j, valid m j = true -> nthz a j (-1) = nthz sp j (-1) /\ nthz b j (-1) = nthz sp j (-1) /\ P j) ->
  forall j, valid m j = true -> nthz a j (-1) = nthz sp j (-1) /\ nthz (updz b k (nthz a k (-1))) j (-1) = nthz sp j (-1) /\ P j.
Proof.
  intros E I j V. destruct (I j V) as (Ha & Hb & Hp). split; [exact Ha|]. split; [|exact Hp].
  destruct (Z.eq_dec k j) as [->|N]; [rewrite (nthz_updz_same b m) by assumption; exact Ha | rewrite nthz_updz_other by exact N; exact Hb].
Qed.

Lemma step_inv d s n o : unshared d -> Inv d s n ->
  snd (step d s o) = snd (spec_step d n o) /\ Inv d (fst (step d s o)) (fst (spec_step d n o)).
Proof.
  intros U I. pose proof I as [l1 l2 l3 l4 l5 l6 l7 l8 im ifl ic is_].
  destruct o as [k v|k v|c v|k|k|k|k|c|j]; unfold step, spec_step.
  - (* RenM: the hook is on the index of method k *)
    destruct (valid (d_methods d) k) eqn:V; cbn [negb fst snd]; [|auto]. split; [reflexivity|].
    constructor; unfold get_string; cbn [hooks mid_name em_name fid_name ef_name cls_name n_m n_f n_c]; rewrite ?updz_length; try assumption.
    + intros k' V'. destruct (Z.eq_dec k k') as [<-|N].
      * rewrite !(nthz_updz_same _ (d_methods d)) by assumption. rewrite !hook_same. auto.
      * rewrite !nthz_updz_other by exact N. rewrite (hook_other d s (Meth k) v (Meth k')) by (trivial; congruence). exact (im k' V').
    + intros k' V'. rewrite (hook_other d s (Meth k) v (Fld k')) by (trivial; discriminate). exact (ifl k' V').
    + intros c V'. rewrite (hook_other d s (Meth k) v (Cls c)) by (trivial; discriminate). exact (ic c V').
    + intros j V'. rewrite (hook_other d s (Meth k) v (Cst j)) by (trivial; discriminate). exact (is_ j V').
  - destruct (valid (d_fields d) k) eqn:V; cbn [negb fst snd]; [|auto]. split; [reflexivity|].
    constructor; unfold get_string; cbn [hooks mid_name em_name fid_name ef_name cls_name n_m n_f n_c]; rewrite ?updz_length; try assumption.
    + intros k' V'. rewrite (hook_other d s (Fld k) v (Meth k')) by (trivial; discriminate). exact (im k' V').
    + intros k' V'. destruct (Z.eq_dec k k') as [<-|N].
      * rewrite !(nthz_updz_same _ (d_fields d)) by assumption. rewrite !hook_same. auto.
      * rewrite !nthz_updz_other by exact N. rewrite (hook_other d s (Fld k) v (Fld k')) by (trivial; congruence). exact (ifl k' V').
    + intros c V'. rewrite (hook_other d s (Fld k) v (Cls c)) by (trivial; discriminate). exact (ic c V').
    + intros j V'. rewrite (hook_other d s (Fld k) v (Cst j)) by (trivial; discriminate). exact (is_ j V').
  - (* RenC: every method id is reloaded, and the members of the class from their ids *)
    destruct (valid (d_classes d) c) eqn:V; cbn [negb fst snd]; [|auto]. split; [reflexivity|].
    constructor; unfold get_string; cbn [hooks mid_name em_name fid_name ef_name cls_name n_m n_f n_c]; rewrite ?updz_length; try assumption;
      try (unfold indices; now rewrite !map_length, seq_length).
    + intros k' V'. destruct (im k' V') as (A & B & C). rewrite !nthz_map_indices by exact V'.
      rewrite (hook_other d s (Cls c) v (Meth k')) by (trivial; discriminate).
      split; [exact C|]. split; [|exact C]. destruct (_ =? c); [exact C | exact B].
    + intros k' V'. destruct (ifl k' V') as (A & B & C). rewrite !nthz_map_indices by exact V'.
      rewrite (hook_other d s (Cls c) v (Fld k')) by (trivial; discriminate).
      split; [exact A|]. split; [|exact C]. destruct (_ =? c); [exact A | exact B].
    + intros c' V'. destruct (Z.eq_dec c c') as [<-|N].
      * rewrite !(nthz_updz_same _ (d_classes d)) by assumption. rewrite !hook_same. auto.
      * rewrite !nthz_updz_other by exact N. rewrite (hook_other d s (Cls c) v (Cls c')) by (trivial; congruence). exact (ic c' V').
    + intros j V'. rewrite (hook_other d s (Cls c) v (Cst j)) by (trivial; discriminate). exact (is_ j V').
  - destruct (valid (d_methods d) k); cbn [negb fst snd]; (split; [reflexivity|]); [|exact I].
    constructor; cbn [hooks mid_name em_name fid_name ef_name cls_name]; rewrite ?updz_length; try assumption.
    exact (reload_keeps (d_methods d) k l2 im).
  - destruct (valid (d_fields d) k); cbn [negb fst snd]; (split; [reflexivity|]); [|exact I].
    constructor; cbn [hooks mid_name em_name fid_name ef_name cls_name]; rewrite ?updz_length; try assumption.
    exact (reload_keeps (d_fields d) k l4 ifl).
  - destruct (valid (d_methods d) k) eqn:V; cbn [negb]; [|split; [cbn [snd]; now rewrite (nthz_invalid _ (d_methods d)) | exact I]].
    destruct (im k V) as (A & B & C).
    destruct (nthz (em_loaded s) k false); cbn [fst snd]; [split; [f_equal; exact B | exact I]|]. split; [f_equal; exact A|].
    constructor; cbn [hooks mid_name em_name fid_name ef_name cls_name]; rewrite ?updz_length; try assumption.
    exact (reload_keeps (d_methods d) k l2 im).
  - destruct (valid (d_fields d) k) eqn:V; cbn [negb]; [|split; [cbn [snd]; now rewrite (nthz_invalid _ (d_fields d)) | exact I]].
    destruct (ifl k V) as (A & B & C).
    destruct (nthz (ef_loaded s) k false); cbn [fst snd]; [split; [f_equal; exact B | exact I]|]. split; [f_equal; exact A|].
    constructor; cbn [hooks mid_name em_name fid_name ef_name cls_name]; rewrite ?updz_length; try assumption.
    exact (reload_keeps (d_fields d) k l4 ifl).
  - cbn [fst snd]. split; [|exact I]. f_equal. destruct (valid (d_classes d) c) eqn:V; [apply ic, V|].
    now rewrite !(nthz_invalid _ (d_classes d)).
  - cbn [fst snd]. split; [|exact I]. f_equal. destruct (valid (d_consts d) j) eqn:V; [apply is_, V|].
    now rewrite (nthz_invalid _ (d_consts d)).
Qed.

Theorem unshared_runs_agree d : unshared d -> forall ops s n, Inv d s n -> run d s ops = spec_run d n ops.
Proof.
  intros U. induction ops as [|o ops IH]; intros s n I; [reflexivity|]. cbn [run spec_run].
  destruct (step_inv d s n o U I) as [E I']. destruct (step d s o) as [s' out]. destruct (spec_step d n o) as [n' out'].
  cbn [fst snd] in *. subst out'. f_equal. now apply IH.
Qed.
Theorem renames_exact_when_unshared d ops : unshared d -> run d (init d) ops = spec_run d (spec_init d) ops.
Proof. intros U. apply unshared_runs_agree; [exact U | apply init_inv]. Qed.
