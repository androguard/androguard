(* C35 - the map list and its modelled sections end on every byte string, whatever counts the file announces. *)
From Coq Require Import ZArith List Bool Lia.
Require Import V.Lib.Val V.Lib.Result V.Lib.Reader V.Dex.LebModel V.Dex.StringsModel V.Dex.MapWalkModel V.Misc.TermProofs V.Dex.DexTerm.
Require V.Dex.EncodedValueModel V.Dex.ClassDataModel.
Import ListNotations.
Open Scope Z_scope.

Definition noo {A} (r : result A) : Prop := r <> Err OutOfFuel.

Lemma read_n_weight {A} (rd : bytes -> result (A * bytes)) c :
  (forall b x r, rd b = Ok (x, r) -> (c + length r <= length b)%nat) ->
  forall fuel count bs acc xs r, read_n rd fuel count bs acc = Ok (xs, r) -> (c * length xs + length r <= c * length acc + length bs)%nat.
Proof.
  intros P. induction fuel as [|f IH]; intros count bs acc xs r H; [discriminate|]. cbn [read_n] in H.
  destruct (count <=? 0); [injection H as <- <-; rewrite rev_length; lia|].
  destruct (rd bs) as [[x r']|e] eqn:R; [|discriminate]. apply P in R. apply IH in H. cbn [length] in H. lia.
Qed.

(* every reader of the model, once: what it reads when its nested loops have fuel for the bytes in front of it - or whatever
   their fuel, where running out is allowed *)
Section Reads.
  Variable oof : Prop.

  Lemma take_n_reads k bs : reads oof k (take_n k bs) bs.
  Proof. unfold take_n. destruct (Nat.leb_spec k (length bs)); [apply reads_ok; rewrite skipn_length; lia | apply reads_err; discriminate]. Qed.
  Lemma u32_reads bs : reads oof 4 (u32 bs) bs.
  Proof. unfold u32. apply reads_then; [apply take_n_reads|]. intros x r _. apply reads_ret. Qed.
  Lemma u16_reads bs : reads oof 2 (u16 bs) bs.
  Proof. unfold u16. apply reads_then; [apply take_n_reads|]. intros x r _. apply reads_ret. Qed.

  (* the generic loop: a reader that leaves fewer bytes than it found is called at most (bytes + 1) times, whatever the count
     says; the readers of nested loops are given the fuel `bound` *)
  Lemma read_n_reads {A} (rd : bytes -> result (A * bytes)) bound :
    (forall b, oof \/ (length b < bound)%nat -> reads oof 1 (rd b) b) ->
    forall fuel count bs acc, oof \/ (length bs < fuel /\ length bs < bound)%nat -> reads oof 0 (read_n rd fuel count bs acc) bs.
  Proof.
    intros R. induction fuel as [|f IH]; intros count bs acc Hf; cbn [read_n].
    - apply reads_err. intros _. destruct Hf as [o|[Hf _]]; [exact o | lia].
    - destruct (count <=? 0); [apply reads_ret|].
      eapply reads_next; [apply R; intuition lia|]. intros x r H. apply IH. intuition lia.
  Qed.
  Lemma with_pos_reads {A} L (rd : bytes -> result (A * bytes)) n bs : reads oof n (rd bs) bs -> reads oof n (with_pos L rd bs) bs.
  Proof. intros R. apply reads_then; [exact R|]. intros x r _. apply reads_ret. Qed.

  Lemma fixed_reads k : (0 < k)%nat -> forall bs, reads oof 1 (rd_fixed k bs) bs.
  Proof. intros K bs. eapply reads_weaken; [apply take_n_reads | auto | lia]. Qed.
  Lemma fixed_loop k fuel count bs : (0 < k)%nat -> oof \/ (length bs < fuel)%nat ->
    reads oof 0 (read_n (rd_fixed k) fuel count bs []) bs.
  Proof. intros K Hf. apply read_n_reads with (bound := fuel); [intros b _; exact (fixed_reads k K b) | intuition lia]. Qed.

  Lemma sized_reads k p fuel : (0 < k)%nat -> forall bs, oof \/ (length bs < fuel)%nat -> reads oof 1 (rd_sized k p fuel bs) bs.
  Proof.
    intros K bs Hf. unfold rd_sized. eapply reads_bind; [apply u32_reads|]. intros n r H.
    eapply reads_bind; [apply fixed_loop; [exact K | intuition lia]|]. intros xs r1 H1.
    apply reads_ok. destruct (p && Z.odd n); [rewrite skipn_length|]; lia.
  Qed.
  Lemma anndir_reads fuel bs : oof \/ (length bs < fuel)%nat -> reads oof 1 (rd_anndir fuel bs) bs.
  Proof.
    intros Hf. unfold rd_anndir.
    eapply reads_bind; [apply u32_reads|]. intros a r0 H0. eapply reads_bind; [apply u32_reads|]. intros nf r1 H1.
    eapply reads_bind; [apply u32_reads|]. intros nm r2 H2. eapply reads_bind; [apply u32_reads|]. intros np r3 H3.
    eapply reads_bind; [apply (fixed_loop 8); intuition lia|]. intros fs r4 H4.
    eapply reads_bind; [apply (fixed_loop 8); intuition lia|]. intros ms r5 H5.
    eapply reads_bind; [apply (fixed_loop 8); intuition lia|]. intros ps r6 H6. apply reads_ok. lia.
  Qed.

  Lemma after0_length : forall z, (length (after0 z) <= length z)%nat.
  Proof. induction z as [|b t IH]; cbn [after0 length]; [lia|]. destruct (b =? 0); lia. Qed.
  Lemma strdata_reads bs : reads oof 1 (rd_strdata bs) bs.
  Proof.
    unfold rd_strdata. apply reads_then; [apply read_u_reads|]. intros n r _.
    destruct (has0 r); [apply reads_ok, after0_length | apply reads_err; discriminate].
  Qed.
  Lemma pair_reads bs : reads oof 1 (rd_pair bs) bs.
  Proof.
    unfold rd_pair. apply reads_then; [apply read_u_reads|]. intros a r _.
    eapply reads_next; [apply read_u_reads|]. intros b r2 _. apply reads_ret.
  Qed.
  Lemma handler_reads fuel bs : oof \/ (length bs < fuel)%nat -> reads oof 1 (rd_handler fuel bs) bs.
  Proof.
    intros Hf. unfold rd_handler. apply reads_then; [apply read_s_reads|]. intros size r H.
    eapply reads_next; [apply read_n_reads with (bound := fuel); [intros b _; apply pair_reads | intuition lia]|]. intros ps r1 _.
    destruct (size <=? 0); [|apply reads_ret].
    eapply reads_next; [apply read_u_reads|]. intros c r2 _. apply reads_ret.
  Qed.
  (* the try items and the handler lists of a code item, wherever they start *)
  Lemma tries_reads fuel (at0 tries : Z) bs : oof \/ (length bs < fuel)%nat -> reads oof 0
    (if 0 <? tries
     then do '(ts, r3) <- read_n (rd_fixed 8) fuel tries bs []; do '(hs, r4) <- read_u r3; do '(hl, r5) <- read_n (rd_handler fuel) fuel hs r4 []; Ok ((at0, (Z.of_nat (length ts), Z.of_nat (length hl))), r5)
     else Ok ((at0, (0, 0)), bs)) bs.
  Proof.
    intros Hf. destruct (0 <? tries); [|apply reads_ret].
    eapply reads_next; [apply (fixed_loop 8); intuition lia|]. intros ts r3 H3.
    eapply reads_next; [apply read_u_reads|]. intros hs r4 H4.
    eapply reads_next; [apply read_n_reads with (bound := fuel); [apply handler_reads | intuition lia]|]. intros hl r5 _.
    apply reads_ret.
  Qed.
  Lemma code_reads L fuel bs : oof \/ (length bs < fuel)%nat -> reads oof 1 (rd_code L fuel bs) bs.
  Proof.
    intros Hf. unfold rd_code. cbv zeta. eapply reads_bind; [apply (take_n_reads 16)|]. intros h r H. rewrite skipn_length in H.
    set (r1 := skipn _ r). assert (B1 : (length r1 <= length r)%nat) by (unfold r1; rewrite skipn_length; lia).
    destruct (Z.odd _ && _); cbn [bind]; [|eapply reads_weaken; [apply tries_reads; intuition lia | auto | lia]].
    pose proof (u16_reads r1) as U. destruct (u16 r1) as [[p x]|e]; cbn [bind]; [|exact U].
    apply (reads_le (v := p) (r := x)) in U; [|reflexivity]. eapply reads_weaken; [apply tries_reads; intuition lia | auto | lia].
  Qed.

  Lemma encarray_reads fuel bs : oof \/ (length bs < fuel)%nat -> reads oof 1 (rd_encarray fuel bs) bs.
  Proof.
    intros Hf. unfold rd_encarray. destruct (Nat.leb_spec fuel (length bs)) as [Q|Q]; [apply reads_err; intros _; destruct Hf; [assumption | lia]|].
    apply reads_then; [eapply reads_weaken; [apply (parse_array_reads fuel bs Q) | intros [] | apply le_n]|]. intros vs r _. apply reads_ret.
  Qed.
  Lemma annotation_reads fuel bs : oof \/ (length bs < fuel)%nat -> reads oof 1 (rd_annotation fuel bs) bs.
  Proof.
    intros Hf. unfold rd_annotation. destruct (Nat.leb_spec fuel (length bs)) as [Q|Q]; [apply reads_err; intros _; destruct Hf; [assumption | lia]|].
    apply reads_then; [apply get_byte_reads|]. intros vis r H.
    eapply reads_next; [eapply reads_weaken; [apply (parse_step_reads (parse_value_level fuel)); lia | intros [] | apply le_n]|].
    intros v r2 _. apply reads_ret.
  Qed.

  Lemma read_fields_reads : forall fuel cnt prev bs, reads oof 0 (ClassDataModel.read_fields fuel cnt prev bs) bs.
  Proof.
    induction fuel as [|f IH]; intros cnt prev bs; cbn [ClassDataModel.read_fields]; destruct (cnt <=? 0); try apply reads_ret.
    - apply reads_err. discriminate.
    - eapply reads_next; [apply read_u_reads|]. intros d r1 _. eapply reads_next; [apply read_u_reads|]. intros fl r2 _.
      eapply reads_next; [apply IH|]. intros rest r3 _. apply reads_ret.
  Qed.
  Lemma read_methods_reads : forall fuel cnt prev bs, reads oof 0 (ClassDataModel.read_methods fuel cnt prev bs) bs.
  Proof.
    induction fuel as [|f IH]; intros cnt prev bs; cbn [ClassDataModel.read_methods]; destruct (cnt <=? 0); try apply reads_ret.
    - apply reads_err. discriminate.
    - eapply reads_next; [apply read_u_reads|]. intros d r1 _. eapply reads_next; [apply read_u_reads|]. intros fl r2 _.
      eapply reads_next; [apply read_u_reads|]. intros co r3 _.
      eapply reads_next; [apply IH|]. intros rest r4 _. apply reads_ret.
  Qed.
  Lemma classdata_reads bs : reads oof 1 (rd_classdata bs) bs.
  Proof.
    unfold rd_classdata, ClassDataModel.read_class_data. apply reads_then; [|intros cd r _; apply reads_ret].
    apply reads_then; [apply read_u_reads|]. intros ns r1 _. eapply reads_next; [apply read_u_reads|]. intros ni r2 _.
    eapply reads_next; [apply read_u_reads|]. intros nd r3 _. eapply reads_next; [apply read_u_reads|]. intros nv r4 _.
    eapply reads_next; [apply read_fields_reads|]. intros sf r5 _. eapply reads_next; [apply read_fields_reads|]. intros inf r6 _.
    eapply reads_next; [apply read_methods_reads|]. intros dm r7 _. eapply reads_next; [apply read_methods_reads|]. intros vm r8 _.
    apply reads_ret.
  Qed.

  Lemma mitem_reads bs : reads oof 12 (rd_mitem bs) bs.
  Proof.
    unfold rd_mitem. eapply reads_bind; [apply u16_reads|]. intros ty r0 H0. destruct (kind_of ty); [|apply reads_err; discriminate].
    eapply reads_bind; [apply (take_n_reads 10)|]. intros rest r1 H1. apply reads_ok. lia.
  Qed.
End Reads.

Section Loop.
  Variable A : Type.
  Variable rd : bytes -> result (A * bytes).
  Variable bound : nat.                      (* the readers of nested loops are given this much fuel: enough below this length *)
  Hypothesis rd_noo : forall bs, (length bs < bound)%nat -> noo (rd bs).
  Hypothesis rd_progress : forall bs x r, rd bs = Ok (x, r) -> (length r < length bs)%nat.
  Lemma read_n_ends : forall fuel count bs acc, (length bs < fuel)%nat -> (length bs < bound)%nat -> noo (read_n rd fuel count bs acc).
  Proof.
    intros fuel count bs acc Hf Hb. eapply reads_noo, read_n_reads with (bound := bound); [|auto].
    intros b [[]|H]. exact (reads_intro 1 (rd_noo b H) (rd_progress b)).
  Qed.
  Lemma read_n_count : forall fuel count bs acc xs r, read_n rd fuel count bs acc = Ok (xs, r) -> (length xs + length r <= length acc + length bs)%nat.
  Proof using rd_progress.
    clear rd_noo bound. intros fuel count bs acc xs r H. apply (read_n_weight rd 1 rd_progress) in H. lia.
  Qed.
End Loop.

Lemma loop_ok {A} L (rd : bytes -> result (A * bytes)) (bound : nat) :
  (forall b, (length b < bound)%nat -> noo (rd b)) -> (forall b x r, rd b = Ok (x, r) -> (length r < length b)%nat) ->
  forall fuel count bs, (length bs < fuel)%nat -> (length bs < bound)%nat -> noo (read_n (with_pos L rd) fuel count bs []).
Proof.
  intros N P fuel count bs Hf Hb. eapply reads_noo, read_n_reads with (bound := bound); [|auto].
  intros b [[]|H]. exact (with_pos_reads False L rd _ b (reads_intro 1 (N b H) (P b))).
Qed.

Lemma code_noo L fuel bs : (length bs < fuel)%nat -> noo (rd_code L fuel bs).
Proof. intros Hf. exact (reads_noo (code_reads False L fuel bs (or_intror Hf))). Qed.
Lemma code_progress L fuel bs x r : rd_code L fuel bs = Ok (x, r) -> (length r < length bs)%nat.
Proof. exact (reads_le (code_reads True L fuel bs (or_introl I))). Qed.

Lemma read_fields_facts : forall fuel cnt prev bs,
  noo (ClassDataModel.read_fields fuel cnt prev bs) /\ forall x r, ClassDataModel.read_fields fuel cnt prev bs = Ok (x, r) -> (length r <= length bs)%nat.
Proof. intros fuel cnt prev bs. exact (reads_facts (read_fields_reads False fuel cnt prev bs)). Qed.
Lemma read_methods_facts : forall fuel cnt prev bs,
  noo (ClassDataModel.read_methods fuel cnt prev bs) /\ forall x r, ClassDataModel.read_methods fuel cnt prev bs = Ok (x, r) -> (length r <= length bs)%nat.
Proof. intros fuel cnt prev bs. exact (reads_facts (read_methods_reads False fuel cnt prev bs)). Qed.
Lemma classdata_facts bs : noo (rd_classdata bs) /\ forall x r, rd_classdata bs = Ok (x, r) -> (length r < length bs)%nat.
Proof. exact (reads_facts (classdata_reads False bs)). Qed.

Lemma seek_length buf p : (length (seek buf p) <= length buf)%nat.
Proof. unfold seek. destruct (p <? 0); [lia|]. rewrite skipn_length. lia. Qed.

Lemma kind_pos ty : match kind_of ty with Some (KFixed k) | Some (KSized k _) => (0 < k)%nat | _ => True end.
Proof. unfold kind_of. repeat match goal with |- context [if ?c then _ else _] => destruct c end; cbv iota beta; try exact I; lia. Qed.
Lemma kind_fixed_pos ty k : kind_of ty = Some (KFixed k) -> (0 < k)%nat.
Proof. intros K. pose proof (kind_pos ty) as P. rewrite K in P. exact P. Qed.

Theorem section_ends : forall buf ty count off, noo (section (S (length buf)) buf ty count off).
Proof.
  intros buf ty count off. unfold section. pose proof (seek_length buf (start_of ty off)) as SL. pose proof (kind_pos ty) as KP.
  (* every kind of section is the loop over a reader that takes at least one byte *)
  destruct (kind_of ty) as [[k|k p| | | | | | | | |]|]; try discriminate;
    (eapply reads_bind_noo; [apply read_n_reads with (bound := S (length buf)); [|right; lia] | discriminate]); intros b Hb.
  - apply with_pos_reads, fixed_reads, KP.
  - apply with_pos_reads, sized_reads; assumption.
  - apply with_pos_reads, anndir_reads, Hb.
  - apply with_pos_reads, strdata_reads.
  - apply code_reads, Hb.
  - apply with_pos_reads, encarray_reads, Hb.
  - apply with_pos_reads, annotation_reads, Hb.
  - apply with_pos_reads, classdata_reads.
Qed.

Lemma sections_end buf : forall items, noo (sections (S (length buf)) buf items).
Proof.
  induction items as [|it r IH]; cbn [sections]; [discriminate|].
  apply bind_noo; [apply section_ends|]. intros n. apply bind_noo; [exact IH | discriminate].
Qed.

(* MapList.__init__ ends on every byte string and every offset *)
Theorem map_list_ends : forall buf off, noo (map_list (S (length buf)) buf off).
Proof.
  intros buf off. unfold map_list. pose proof (seek_length buf off) as SL.
  eapply reads_bind_noo; [apply u32_reads|]. intros n r H.
  eapply reads_bind_noo; [apply read_n_reads with (bound := S (length buf)); [|right; lia]|].
  - intros b _. eapply reads_weaken; [apply (mitem_reads False) | auto | lia].
  - intros items r1 _. apply bind_noo; [apply sections_end|]. intros _. apply bind_noo; [apply sections_end | discriminate].
Qed.
Theorem map_list_size : forall fuel buf off l, map_list fuel buf off = Ok l -> (12 * length l + 4 <= length buf)%nat.
Proof.
  intros fuel buf off l. unfold map_list. pose proof (seek_length buf off) as SL.
  destruct (u32 (seek buf off)) as [[n r]|e] eqn:U; cbn [bind]; [|discriminate]. apply (reads_le (u32_reads True _)) in U.
  destruct (read_n rd_mitem fuel n r []) as [[items r1]|e] eqn:R; cbn [bind]; [|discriminate].
  apply (read_n_weight rd_mitem 12) in R; [|intros b x r'; exact (reads_le (mitem_reads True b))]. cbn [length] in R.
  destruct (sections fuel buf (MapOrderModel.isort load_rank items)) as [ns0|e]; cbn [bind]; [|discriminate].
  destruct (sections fuel buf items) as [ns|e]; cbn [bind]; [|discriminate]. intros H'. injection H' as <-. rewrite combine_length. lia.
Qed.
Print Assumptions map_list_ends.

(* a map with a type list of three types, two string ids and the map itself; the announced count of string ids is 2^32-1 *)
Definition ex_buf : bytes :=
  [3;0;0;0; 1;0; 2;0; 3;0; 0;0; 9;9;9;9] ++
  [3;0;0;0; 1;16;0;0; 1;0;0;0; 0;0;0;0;  1;0;0;0; 2;0;0;0; 0;0;0;0;  0;16;0;0; 1;0;0;0; 16;0;0;0].
Example map_example : map_list (S (length ex_buf)) ex_buf 16 =
  Ok [({| m_type := 4097; m_count := 1; m_off := 0 |}, [0]); ({| m_type := 1; m_count := 2; m_off := 0 |}, [0; 4]); ({| m_type := 4096; m_count := 1; m_off := 16 |}, [])].
Proof. vm_compute. reflexivity. Qed.
Example map_example_huge : map_list 60 (firstn 36 ex_buf ++ [255;255;255;255] ++ skipn 40 ex_buf) 16 = Err StructError.
Proof. vm_compute. reflexivity. Qed.

(* the order the sections are parsed in is the one C07's model computes from the dependency table of the source *)
Example load_order_is : load_order = [0; 4096; 8194; 1; 2; 4; 4097; 3; 5; 8; 7; 8192; 8195; 8193; 8196; 4099; 4098; 8197; 8198; 6; 61440].
Proof. vm_compute. reflexivity. Qed.
