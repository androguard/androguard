(* C08 - the reader of the code-item tail returns what is encoded; determineException keeps every try item once. *)
From Coq Require Import ZArith List Bool Lia Permutation.
Require Import V.Lib.Val V.Lib.Result V.Dex.LebModel V.Dex.LebSpec V.Dex.LebProofs V.Analysis.CfgModel V.Dex.TriesModel.
Import ListNotations.
Open Scope Z_scope.

(* the encoding, with the LEB128 byte strings chosen freely among the well-formed ones *)
Definition le16 (v : Z) : list Z := [v mod 256; (v / 256) mod 256].
Definition le32 (v : Z) : list Z := [v mod 256; (v / 256) mod 256; (v / 65536) mod 256; (v / 16777216) mod 256].
Lemma u16_le16 : forall v r, 0 <= v < 65536 -> u16 (le16 v ++ r) = Ok (v, r).
Proof. intros v r H. unfold u16, le16. cbn [app]. f_equal. f_equal. lia. Qed.
Lemma u32_le32 : forall v r, 0 <= v < 4294967296 -> u32 (le32 v ++ r) = Ok (v, r).
Proof. intros v r H. unfold u32, le32. cbn [app]. f_equal. f_equal. lia. Qed.

Definition wf_try (t : try_item) : Prop := 0 <= t_start t < 4294967296 /\ 0 <= t_count t < 65536 /\ 0 <= t_hoff t < 65536.
Definition bytes_try (t : try_item) : list Z := le32 (t_start t) ++ le16 (t_count t) ++ le16 (t_hoff t).

Lemma read_try_spec : forall t r, wf_try t -> read_try (bytes_try t ++ r) = Ok (t, r).
Proof.
  intros [s c h] r [H1 [H2 H3]]. cbn [t_start t_count t_hoff] in *. unfold read_try, bytes_try. cbn [t_start t_count t_hoff].
  replace (length ((le32 s ++ le16 c ++ le16 h) ++ r) <? 8)%nat with false
    by (symmetry; apply Nat.ltb_ge; rewrite app_length; cbn; lia).
  rewrite <- !app_assoc. rewrite u32_le32 by exact H1. cbn [bind]. rewrite u16_le16 by exact H2. cbn [bind].
  rewrite u16_le16 by exact H3. reflexivity.
Qed.
Lemma read_tries_spec : forall ts r, Forall wf_try ts ->
  read_tries (length ts) (concat (map bytes_try ts) ++ r) = Ok (ts, r).
Proof.
  induction ts as [|t ts IH]; intros r H; [reflexivity|]. inversion H; subst. cbn [length read_tries map concat].
  rewrite <- app_assoc. rewrite read_try_spec by assumption. cbn [bind]. rewrite IH by assumption. reflexivity.
Qed.

Record enc_handler := { eh_size : list Z; eh_pairs : list (list Z * list Z); eh_ca : option (list Z) }.
Definition wf_enc_handler (h : enc_handler) : Prop :=
  wf_leb (eh_size h) = true /\
  sleb_value (eh_size h) = (match eh_ca h with Some _ => - Z.of_nat (length (eh_pairs h)) | None => Z.of_nat (length (eh_pairs h)) end) /\
  (eh_ca h = None -> eh_pairs h <> []) /\
  Forall (fun p => wf_leb (fst p) = true /\ wf_leb (snd p) = true) (eh_pairs h) /\
  (forall b, eh_ca h = Some b -> wf_leb b = true).
Definition bytes_handler (h : enc_handler) : list Z :=
  eh_size h ++ concat (map (fun p => fst p ++ snd p) (eh_pairs h)) ++ match eh_ca h with Some b => b | None => [] end.
Definition denote_handler (off : Z) (h : enc_handler) : handler :=
  {| h_off := off; h_typed := map (fun p => (uleb_value (fst p), uleb_value (snd p))) (eh_pairs h);
     h_catch_all := option_map uleb_value (eh_ca h) |}.

Lemma read_pairs_spec : forall ps r, Forall (fun p => wf_leb (fst p) = true /\ wf_leb (snd p) = true) ps ->
  read_pairs (length ps) (concat (map (fun p => fst p ++ snd p) ps) ++ r) =
  Ok (map (fun p => (uleb_value (fst p), uleb_value (snd p))) ps, r).
Proof.
  induction ps as [|[a b] ps IH]; intros r H; [reflexivity|]. inversion H as [|? ? [Ha Hb] Hps]; subst. cbn [fst snd] in *.
  cbn [length read_pairs map concat fst snd]. rewrite <- !app_assoc. rewrite read_u_spec by exact Ha. cbn [bind].
  rewrite read_u_spec by exact Hb. cbn [bind]. rewrite IH by exact Hps. reflexivity.
Qed.

Lemma read_handler_spec : forall off h r, wf_enc_handler h ->
  read_handler off (bytes_handler h ++ r) = Ok (denote_handler off h, r).
Proof.
  intros off [sz ps ca] r [H1 [H2 [H3 [H4 H5]]]]. cbn [eh_size eh_pairs eh_ca] in *.
  unfold read_handler, bytes_handler, denote_handler. cbn [eh_size eh_pairs eh_ca]. rewrite <- !app_assoc.
  rewrite read_s_spec by exact H1. cbn [bind]. rewrite H2. destruct ca as [b|].
  - replace (Z.to_nat (Z.abs (- Z.of_nat (length ps)))) with (length ps) by lia.
    rewrite read_pairs_spec by exact H4. cbn [bind].
    replace (- Z.of_nat (length ps) <=? 0) with true by (symmetry; apply Z.leb_le; lia).
    rewrite read_u_spec by (apply H5; reflexivity). reflexivity.
  - replace (Z.to_nat (Z.abs (Z.of_nat (length ps)))) with (length ps) by lia.
    rewrite app_nil_l. rewrite read_pairs_spec by exact H4. cbn [bind].
    assert (ps <> []) by (apply H3; reflexivity). destruct ps; [congruence|].
    replace (Z.of_nat (length (p :: ps)) <=? 0) with false by (symmetry; apply Z.leb_gt; cbn [length]; lia). reflexivity.
Qed.

Fixpoint denote_from (off : Z) (hs : list enc_handler) : list handler :=
  match hs with
  | [] => []
  | h :: t => denote_handler off h :: denote_from (off + Z.of_nat (length (bytes_handler h))) t
  end.
Lemma read_handlers_spec : forall hs total r, Forall wf_enc_handler hs ->
  read_handlers (length hs) total (concat (map bytes_handler hs) ++ r) =
  Ok (denote_from (total - Z.of_nat (length (concat (map bytes_handler hs) ++ r))) hs, r).
Proof.
  induction hs as [|h hs IH]; intros total r H; [reflexivity|]. inversion H; subst.
  cbn [length read_handlers map concat denote_from]. rewrite <- app_assoc. rewrite read_handler_spec by assumption. cbn [bind].
  rewrite IH by assumption. cbn [bind]. f_equal. f_equal. f_equal. f_equal. rewrite !app_length. lia.
Qed.

Record enc_list := { el_size : list Z; el_handlers : list enc_handler }.
Definition wf_enc_list (l : enc_list) : Prop :=
  wf_leb (el_size l) = true /\ uleb_value (el_size l) = Z.of_nat (length (el_handlers l)) /\ Forall wf_enc_handler (el_handlers l).
Definition bytes_list (l : enc_list) : list Z := el_size l ++ concat (map bytes_handler (el_handlers l)).
Definition denote_list (l : enc_list) : list handler := denote_from (Z.of_nat (length (el_size l))) (el_handlers l).

Lemma read_handler_list_spec : forall l r, wf_enc_list l -> read_handler_list (bytes_list l ++ r) = Ok (denote_list l, r).
Proof.
  intros [sz hs] r [H1 [H2 H3]]. cbn [el_size el_handlers] in *. unfold read_handler_list, bytes_list, denote_list.
  cbn [el_size el_handlers]. rewrite <- app_assoc. rewrite read_u_spec by exact H1. cbn [bind]. rewrite H2, Nat2Z.id.
  rewrite read_handlers_spec by exact H3. f_equal. f_equal. f_equal. rewrite !app_length. lia.
Qed.

Theorem read_tail_spec : forall insns_size ts l pad r,
  ts <> [] -> Forall wf_try ts -> wf_enc_list l -> length pad = 2%nat ->
  read_tail insns_size (Z.of_nat (length ts))
    ((if insns_size mod 2 =? 1 then pad else []) ++ concat (map bytes_try ts) ++ bytes_list l ++ r)
  = Ok ((ts, denote_list l), r).
Proof.
  intros n ts l pad r Hne Hts Hl Hpad. unfold read_tail.
  assert (Hpos : (0 <? Z.of_nat (length ts)) = true) by (apply Z.ltb_lt; destruct ts; [congruence|cbn [length]; lia]).
  rewrite Hpos, andb_true_r.
  destruct (n mod 2 =? 1); [destruct pad as [|a [|b [|c pad]]]; try discriminate|]; cbn [app u16 bind];
    rewrite Nat2Z.id, read_tries_spec by exact Hts; cbn [bind]; rewrite read_handler_list_spec by exact Hl; reflexivity.
Qed.
Theorem read_tail_no_tries : forall insns_size r, read_tail insns_size 0 r = Ok (([], []), r).
Proof. intros. unfold read_tail. cbn. rewrite andb_false_r. reflexivity. Qed.

Definition entry (hs : list handler) (t : try_item) : option exc :=
  match find (fun h => h_off h =? t_hoff t) hs with
  | None => None
  | Some h => Some {| e_start := t_start t * 2; e_end := t_start t * 2 + t_count t * 2 - 1;
                      e_handlers := map (fun p => (fst p, snd p * 2)) (h_typed h) ++
                                    match h_catch_all h with Some a => [(TY_THROWABLE, a * 2)] | None => [] end |}
  end.

Definition flat (g : list (Z * list try_item)) : list (Z * try_item) := flat_map (fun x => map (fun t => (fst x, t)) (snd x)) g.
Lemma flat_cons : forall k ts g, flat ((k, ts) :: g) = map (fun t => (k, t)) ts ++ flat g.
Proof. reflexivity. Qed.
(* grouping by handler offset only reorders the try items; each stays with its own offset *)
Lemma flat_group_add g k t : Permutation (flat (group_add g k t)) (flat g ++ [(k, t)]).
Proof.
  induction g as [|[k' ts] g IH]; cbn [group_add]; [reflexivity|]. destruct (Z.eqb_spec k' k) as [->|_]; rewrite !flat_cons.
  - rewrite map_app, <- !app_assoc. apply Permutation_app_head, Permutation_app_comm.
  - rewrite <- app_assoc. apply Permutation_app_head, IH.
Qed.
Lemma flat_group_tries : forall tries g,
  Permutation (flat (fold_left (fun g t => group_add g (t_hoff t) t) tries g)) (flat g ++ map (fun t => (t_hoff t, t)) tries).
Proof.
  induction tries as [|t tries IH]; intros g; cbn [fold_left map]; [now rewrite app_nil_r|].
  rewrite IH, flat_group_add, <- app_assoc. reflexivity.
Qed.

Lemma exc_fold hs fl :
  (forall kt, In kt fl -> fst kt = t_hoff (snd kt) /\ exists h, find (fun h => h_off h =? t_hoff (snd kt)) hs = Some h) ->
  exists l, fold_right (exc_step hs) (Ok []) fl = Ok l /\ map Some l = map (fun kt => entry hs (snd kt)) fl.
Proof.
  induction fl as [|kt fl IH]; intros K; [exists []; split; reflexivity|].
  destruct IH as (l & E1 & E2); [intros x Hx; apply K; right; exact Hx|].
  destruct (K kt (or_introl eq_refl)) as (Hk & h & Hh).
  cbn [fold_right map]. rewrite E1, <- E2. unfold exc_step, entry. rewrite Hk, Hh. eexists. split; reflexivity.
Qed.

Theorem determine_exception_exact : forall tries hs,
  (forall t, In t tries -> exists h, find (fun h => h_off h =? t_hoff t) hs = Some h) ->
  exists l, determine_exception tries hs = Ok l /\
            Permutation (map Some l) (map (entry hs) tries).
Proof.
  intros tries hs Hall. unfold determine_exception. fold (flat (group_tries tries)).
  pose proof (flat_group_tries tries []) as P. cbn [flat flat_map app] in P. fold (group_tries tries) in P.
  destruct (exc_fold hs (flat (group_tries tries))) as (l & E1 & E2).
  { intros kt H. apply (Permutation_in _ P), in_map_iff in H as (t & <- & Ht). auto. }
  exists l. split; [exact E1|]. rewrite E2, P, map_map. reflexivity.
Qed.
