(* C06 - the DEX string pool of coq/Dex/StringsModel.v, in three parts: the chunked reader returns the bytes before the
   first NUL; the decoder, run on the MUTF-8 encoding of any UTF-16 code units, returns the text with those units, which
   is an induction over the units with the two halves of a surrogate pair taken in one step; a string_data section is
   read back item by item, and an id finds its item because the offsets are distinct. *)
From Coq Require Import ZArith List Bool Lia ZifyBool.
Require Import V.Lib.Val V.Lib.Result V.Lib.ListFacts V.Lib.Bits V.Dex.StringsModel.
Import ListNotations.
Open Scope Z_scope.

Lemma has0_cons x z : has0 (x :: z) = (x =? 0) || has0 z.
Proof. unfold has0. cbn [existsb]. now rewrite Z.eqb_sym. Qed.
Lemma has0_app a b : has0 (a ++ b) = has0 a || has0 b.
Proof. apply existsb_app. Qed.
Lemma before0_app a b : before0 (a ++ b) = if has0 a then before0 a else a ++ before0 b.
Proof.
  induction a as [|x a IH]; [reflexivity|]. cbn [app before0]. rewrite has0_cons. destruct (x =? 0); [reflexivity|].
  cbn [orb]. rewrite IH. destruct (has0 a); reflexivity.
Qed.
Lemma before0_no0 z : has0 (before0 z) = false.
Proof.
  induction z as [|x z IH]; [reflexivity|]. cbn [before0]. destruct (x =? 0) eqn:E; [reflexivity|]. now rewrite has0_cons, E, IH.
Qed.
Lemma split0 z : has0 z = true -> z = before0 z ++ 0 :: after0 z.
Proof.
  induction z as [|x z IH]; [discriminate|]. rewrite has0_cons. cbn [before0 after0]. destruct (x =? 0) eqn:E.
  - intros _. apply Z.eqb_eq in E. now subst.
  - cbn [orb app]. intros H. now rewrite <- IH.
Qed.

Definition nts_spec (rest : list Z) (pos : Z) : result (list Z * Z) :=
  if has0 rest then Ok (before0 rest, pos + Z.of_nat (length (before0 rest)) + 1) else Err ValueError.

(* one turn reads the chunk z of rest = z ++ tl: a NUL in z ends the loop, else z joins acc and the loop goes on with tl *)
Lemma nts_loop_spec : forall fuel rest pos acc, (length rest < fuel)%nat ->
  nts_loop fuel rest pos acc =
  if has0 rest then Ok (acc ++ before0 rest, pos + Z.of_nat (length (before0 rest)) + 1) else Err ValueError.
Proof.
  induction fuel as [|f IH]; intros rest pos acc Hf; [lia|].
  destruct rest as [|b r]; [reflexivity|]. cbn [nts_loop]. pose proof (firstn_skipn CHUNK (b :: r)) as Hsplit.
  remember (skipn CHUNK (b :: r)) as tl eqn:Et. clear Et.
  destruct (firstn CHUNK (b :: r)) as [|b' z'] eqn:Ez; [discriminate|]. clear Ez. set (z := b' :: z') in *.
  rewrite <- Hsplit in Hf |- *. rewrite has0_app, before0_app. destruct (has0 z) eqn:Hz; cbn [orb].
  - pose proof (f_equal (@length Z) (split0 z Hz)) as L. rewrite app_length in L. cbn [length] in L. do 2 f_equal. lia.
  - rewrite app_length in Hf. rewrite IH by (unfold z in Hf; cbn [length] in Hf; lia).
    rewrite app_length, <- app_assoc. destruct (has0 tl); [|reflexivity]. do 2 f_equal. lia.
Qed.
Lemma read_nts_spec rest pos : read_nts rest pos = nts_spec rest pos.
Proof. unfold read_nts, nts_spec. rewrite nts_loop_spec by lia. reflexivity. Qed.

Definition u16 (u : Z) : Prop := 0 <= u < 65536.
Definition dec3 (b1 b2 b3 : Z) : Z := Z.lor (Z.lor (Z.shiftl (Z.land b1 15) 12) (Z.shiftl (cont b2) 6)) (cont b3).
Definition starts_lo (rest : list Z) : bool :=
  match rest with b4 :: b5 :: _ :: _ => (b4 =? 237) && (Z.land b5 240 =? 176) | _ => false end.
Definition cons_ok (c : Z) (r : result (list Z)) : result (list Z) := do x <- r; Ok (c :: x).

Lemma decode_1 b1 rest : b1 =? 0 = false -> b1 <? 128 = true -> decode (b1 :: rest) = cons_ok b1 (decode rest).
Proof. intros H1 H2. cbn [decode]. now rewrite H1, H2. Qed.
Lemma decode_2 b1 b2 rest : b1 =? 0 = false -> b1 <? 128 = false -> Z.land b1 224 =? 192 = true ->
  decode (b1 :: b2 :: rest) = cons_ok (Z.lor (Z.shiftl (Z.land b1 31) 6) (cont b2)) (decode rest).
Proof. intros H1 H2 H3. cbn [decode]. now rewrite H1, H2, H3. Qed.
Lemma decode_3_plain b1 b2 b3 rest :
  b1 =? 0 = false -> b1 <? 128 = false -> Z.land b1 224 =? 192 = false -> Z.land b1 240 =? 224 = true ->
  (b1 =? 237) && (Z.land b2 240 =? 160) && starts_lo rest = false ->
  decode (b1 :: b2 :: b3 :: rest) = cons_ok (dec3 b1 b2 b3) (decode rest).
Proof.
  intros H1 H2 H3 H4 H5. cbn [decode]. rewrite H1, H2, H3, H4.
  destruct rest as [|b4 [|b5 [|b6 t]]]; try reflexivity.
  cbn [starts_lo] in H5. rewrite andb_assoc in H5. rewrite H5. reflexivity.
Qed.
Lemma decode_3_pair b2 b3 b5 b6 rest :
  Z.land b2 240 =? 160 = true -> Z.land b5 240 =? 176 = true ->
  decode (237 :: b2 :: b3 :: 237 :: b5 :: b6 :: rest) =
  cons_ok (65536 + Z.lor (Z.lor (Z.lor (Z.shiftl (Z.land b2 15) 16) (Z.shiftl (cont b3) 10)) (Z.shiftl (Z.land b5 15) 6)) (cont b6))
          (decode rest).
Proof.
  intros H1 H2. cbn [decode]. change (237 =? 0) with false. change (237 <? 128) with false.
  change (Z.land 237 224 =? 192) with false. change (Z.land 237 240 =? 224) with true. change (237 =? 237) with true.
  cbn [andb]. rewrite H1, H2. reflexivity.
Qed.

Lemma land31 b : Z.land b 31 = b mod 32.
Proof. exact (land_ones_mod b 5 ltac:(lia)). Qed.
Lemma cont_mod b : cont b = b mod 64.
Proof. exact (land_ones_mod b 6 ltac:(lia)). Qed.

Lemma field2 a b : 0 <= b < 64 -> Z.lor (Z.shiftl a 6) b = a * 64 + b.
Proof. intros H. rewrite Z.lor_comm. lorc 6 64. lia. Qed.
Lemma field3 a b c : 0 <= b < 64 -> 0 <= c < 64 -> Z.lor (Z.lor (Z.shiftl a 12) (Z.shiftl b 6)) c = (a * 64 + b) * 64 + c.
Proof. intros Hb Hc. change 12 with (6 + 6). rewrite <- Z.shiftl_shiftl, <- Z.shiftl_lor, !field2 by lia. reflexivity. Qed.

(* the encoding of a unit: one byte, or a lead byte 110xxxxx / 1110xxxx and continuation bytes 10xxxxxx that hold its bits *)
Definition two (u b1 b2 : Z) : Prop := 192 <= b1 < 224 /\ 128 <= b2 < 192 /\ u = (b1 - 192) * 64 + (b2 - 128).
Definition three (u b1 b2 b3 : Z) : Prop :=
  224 <= b1 < 240 /\ 128 <= b2 < 192 /\ 128 <= b3 < 192 /\ u = ((b1 - 224) * 64 + (b2 - 128)) * 64 + (b3 - 128).
Lemma enc_unit_shape u : u16 u ->
  (0 < u < 128 /\ enc_unit u = [u]) \/ (exists b1 b2, enc_unit u = [b1; b2] /\ two u b1 b2) \/
  (exists b1 b2 b3, enc_unit u = [b1; b2; b3] /\ three u b1 b2 b3).
Proof.
  unfold u16, enc_unit, two, three. intros H. destruct (Z.eqb_spec u 0) as [->|]; [right; left; exists 192, 128; split; [reflexivity | lia]|].
  destruct (Z.ltb_spec u 128); [left; split; [lia | reflexivity]|]. right.
  destruct (Z.ltb_spec u 2048); [left; eexists _, _ | right; eexists _, _, _]; (split; [reflexivity | lia]).
Qed.

Lemma two_decodes u b1 b2 rest : two u b1 b2 -> decode (b1 :: b2 :: rest) = cons_ok u (decode rest).
Proof.
  intros (H1 & H2 & ->). rewrite decode_2; try lia.
  - rewrite land31, cont_mod, field2 by lia. f_equal. lia.
  - rewrite land224 by lia. lia.
Qed.
Lemma three_tests [u b1 b2 b3] : three u b1 b2 b3 ->
  b1 =? 0 = false /\ b1 <? 128 = false /\ Z.land b1 224 =? 192 = false /\ Z.land b1 240 =? 224 = true /\ dec3 b1 b2 b3 = u.
Proof.
  intros (H1 & H2 & H3 & ->). unfold dec3. rewrite land224, land240, land15, !cont_mod by lia. repeat split; try lia.
  rewrite field3 by lia. lia.
Qed.
(* a surrogate is the lead byte 237 with a second byte 1010xxxx (high) or 1011xxxx (low); the decoder joins a pair from these fields *)
Lemma three_surrogate [u b1 b2 b3] : three u b1 b2 b3 ->
  (b1 =? 237) && (Z.land b2 240 =? 160) = is_hi u /\ (b1 =? 237) && (Z.land b2 240 =? 176) = is_lo u /\
  (is_hi u = true -> Z.lor (Z.shiftl (Z.land b2 15) 16) (Z.shiftl (cont b3) 10) = (u - 55296) * 1024) /\
  (is_lo u = true -> Z.lor (Z.shiftl (Z.land b2 15) 6) (cont b3) = u - 56320).
Proof.
  intros (H1 & H2 & H3 & ->). unfold is_hi, is_lo. rewrite land240, land15, cont_mod by lia. repeat split; try lia; intros H.
  - change 16 with (6 + 10). rewrite <- Z.shiftl_shiftl, <- Z.shiftl_lor, field2 by lia. shlc 10 1024. lia.
  - rewrite field2 by lia. lia.
Qed.

(* one unit that is not the first half of a pair in this context *)
Lemma decode_unit_plain u rest : u16 u -> is_hi u && starts_lo rest = false ->
  decode (enc_unit u ++ rest) = cons_ok u (decode rest).
Proof.
  intros Hu Hp. destruct (enc_unit_shape u Hu) as [[H ->]|[(b1 & b2 & -> & T)|(b1 & b2 & b3 & -> & T)]]; cbn [app].
  - apply decode_1; lia.
  - apply two_decodes, T.
  - destruct (three_tests T) as (T1 & T2 & T3 & T4 & V), (three_surrogate T) as (S & _).
    rewrite <- V. apply decode_3_plain; try assumption. rewrite S. exact Hp.
Qed.

Lemma starts_lo_lead b r : (b =? 237) = false -> starts_lo (b :: r) = false.
Proof. intros H. destruct r as [|? [|? ?]]; cbn [starts_lo]; now rewrite ?H. Qed.
Lemma starts_lo_enc l rest : u16 l -> starts_lo (enc_unit l ++ rest) = is_lo l.
Proof.
  intros Hl. destruct (enc_unit_shape l Hl) as [[H ->]|[(b1 & b2 & -> & T)|(b1 & b2 & b3 & -> & T)]]; cbn [app].
  - rewrite starts_lo_lead; unfold is_lo; lia.
  - rewrite starts_lo_lead; unfold two, is_lo in *; lia.
  - apply (three_surrogate T).
Qed.

Lemma enc_surrogate u : u16 u -> is_hi u || is_lo u = true -> exists b2 b3, enc_unit u = [237; b2; b3] /\ three u 237 b2 b3.
Proof.
  intros Hu Hs. destruct (enc_unit_shape u Hu) as [[H _]|[(b1 & b2 & _ & T)|(b1 & b2 & b3 & -> & T)]].
  - unfold is_hi, is_lo in Hs. lia.
  - unfold two, is_hi, is_lo in *. lia.
  - destruct (three_surrogate T) as (A & B & _). rewrite <- A, <- B, <- andb_orb_distrib_r in Hs.
    apply andb_true_iff in Hs as [Hs _]. apply Z.eqb_eq in Hs. subst b1. eauto.
Qed.
Lemma decode_pair h l rest : u16 h -> u16 l -> is_hi h = true -> is_lo l = true ->
  decode (enc_unit h ++ enc_unit l ++ rest) = cons_ok (65536 + (h - 55296) * 1024 + (l - 56320)) (decode rest).
Proof.
  intros Hh Hl Ih Il.
  destruct (enc_surrogate h Hh) as (b2 & b3 & -> & Th); [now rewrite Ih|]. destruct (enc_surrogate l Hl) as (b5 & b6 & -> & Tl); [now rewrite Il, orb_true_r|].
  destruct (three_surrogate Th) as (E2 & _ & V1 & _), (three_surrogate Tl) as (_ & E5 & _ & V2).
  rewrite Ih in E2. rewrite Il in E5. cbn [app]. rewrite (decode_3_pair b2 b3 b5 b6 rest E2 E5). f_equal.
  rewrite <- !Z.lor_assoc. rewrite (V2 Il). rewrite Z.lor_assoc, (V1 Ih).
  unfold is_lo in Il. rewrite Z.lor_comm. change 1024 with (2 ^ 10). rewrite lor_mul_add; lia.
Qed.
Lemma enc_unit_no0 u : u16 u -> has0 (enc_unit u) = false.
Proof.
  intros Hu. destruct (enc_unit_shape u Hu) as [[H ->]|[(b1 & b2 & -> & T)|(b1 & b2 & b3 & -> & T)]];
    cbn [has0 existsb]; unfold two, three in *; lia.
Qed.

Lemma encode_units_cons u us : encode_units (u :: us) = enc_unit u ++ encode_units us.
Proof. reflexivity. Qed.
Lemma to_utf16_cons c cps :
  to_utf16 (c :: cps) = (if c <? 65536 then [c] else [55296 + (c - 65536) / 1024; 56320 + (c - 65536) mod 1024]) ++ to_utf16 cps.
Proof. reflexivity. Qed.
Lemma join_pairs_cons h r :
  join_pairs (h :: r) =
  match r with
  | l :: t => if is_hi h && is_lo l then (65536 + (h - 55296) * 1024 + (l - 56320)) :: join_pairs t else h :: join_pairs r
  | [] => [h]
  end.
Proof. destruct r; reflexivity. Qed.

(* join_pairs steps over one unit or over two *)
Lemma pairs_ind {A} (P : list A -> Prop) :
  P [] -> (forall h, P [h]) -> (forall h l t, P t -> P (l :: t) -> P (h :: l :: t)) -> forall us, P us.
Proof.
  intros H0 H1 H2 us. enough (P us /\ forall h, P (h :: us)) by tauto.
  induction us as [|l t [IHt IHlt]]; split; auto.
Qed.

Lemma decode_encode us : Forall u16 us -> decode (encode_units us) = Ok (join_pairs us).
Proof.
  induction us as [|h|h l t IHt IHlt] using pairs_ind; [reflexivity|..]; intros [Hh Hr]%Forall_cons_iff; rewrite encode_units_cons.
  - rewrite decode_unit_plain by (assumption || apply andb_false_r). reflexivity.
  - pose proof Hr as [Hl Ht]%Forall_cons_iff. rewrite join_pairs_cons. destruct (is_hi h && is_lo l) eqn:E.
    + apply andb_true_iff in E as [E1 E2]. rewrite encode_units_cons, decode_pair, IHt by assumption. reflexivity.
    + rewrite decode_unit_plain, IHlt by (rewrite ?encode_units_cons, ?starts_lo_enc; assumption). reflexivity.
Qed.

Lemma to_utf16_join us : Forall u16 us -> to_utf16 (join_pairs us) = us.
Proof.
  induction us as [|h|h l t IHt IHlt] using pairs_ind; [reflexivity|..]; intros [Hh Hr]%Forall_cons_iff; unfold u16 in Hh; rewrite join_pairs_cons.
  - unfold to_utf16. cbn [flat_map]. replace (h <? 65536) with true by lia. reflexivity.
  - pose proof Hr as [Hl Ht]%Forall_cons_iff. unfold u16 in Hl. destruct (is_hi h && is_lo l) eqn:E; rewrite to_utf16_cons.
    + unfold is_hi, is_lo in E. replace (_ <? 65536) with false by lia. rewrite IHt by assumption. cbn [app]. repeat (f_equal; try lia).
    + replace (h <? 65536) with true by lia. rewrite IHlt by assumption. reflexivity.
Qed.

Lemma encode_units_no0 us : Forall u16 us -> has0 (encode_units us) = false.
Proof.
  induction 1 as [|u us Hu Hus IH]; [reflexivity|]. now rewrite encode_units_cons, has0_app, enc_unit_no0, IH.
Qed.
Lemma read_nts_exact a rest pos : has0 a = false ->
  read_nts (a ++ [0] ++ rest) pos = Ok (a, pos + Z.of_nat (length a) + 1).
Proof.
  intros H. rewrite read_nts_spec. unfold nts_spec. rewrite before0_app, has0_app, H. cbn [app has0 existsb before0 Z.eqb orb]. now rewrite app_nil_r.
Qed.

(* a size prefix the reader consumes exactly: one to five bytes, all but the last above 127 (the fifth may be anything) *)
Definition uleb_prefix (sz : list Z) : bool :=
  match sz with
  | [b0] => b0 <=? 127
  | [b0; b1] => negb (b0 <=? 127) && (b1 <=? 127)
  | [b0; b1; b2] => negb (b0 <=? 127) && negb (b1 <=? 127) && (b2 <=? 127)
  | [b0; b1; b2; b3] => negb (b0 <=? 127) && negb (b1 <=? 127) && negb (b2 <=? 127) && (b3 <=? 127)
  | [b0; b1; b2; b3; _] => negb (b0 <=? 127) && negb (b1 <=? 127) && negb (b2 <=? 127) && negb (b3 <=? 127)
  | _ => false
  end.
Definition uleb_value (sz : list Z) : Z := match read_uleb sz with Ok (v, _) => v | Err _ => 0 end.
Lemma read_uleb_prefix sz rest : uleb_prefix sz = true -> read_uleb (sz ++ rest) = Ok (uleb_value sz, rest).
Proof.
  intros H. unfold uleb_value.
  destruct sz as [|b0 [|b1 [|b2 [|b3 [|b4 [|]]]]]]; try discriminate; cbn [uleb_prefix] in H; cbn [app read_uleb];
    repeat (destruct (_ <=? 127); try discriminate H; cbn [negb andb] in H); reflexivity.
Qed.

Definition item_bytes (it : list Z * list Z) : list Z := fst it ++ encode_units (snd it) ++ [0].
Definition ok_item (it : list Z * list Z) : Prop := uleb_prefix (fst it) = true /\ Forall u16 (snd it).
Definition section (l : list (list Z * list Z)) : list Z := flat_map item_bytes l.
Fixpoint items_at (pos : Z) (l : list (list Z * list Z)) : list sitem :=
  match l with
  | [] => []
  | it :: l' => {| s_off := pos; s_size := uleb_value (fst it); s_data := encode_units (snd it) |}
                :: items_at (pos + Z.of_nat (length (item_bytes it))) l'
  end.

Lemma read_item_exact it rest pos : ok_item it ->
  read_item (item_bytes it ++ rest) pos =
  Ok ({| s_off := pos; s_size := uleb_value (fst it); s_data := encode_units (snd it) |},
      (rest, pos + Z.of_nat (length (item_bytes it)))).
Proof.
  destruct it as [sz us]. intros [Hsz Hus]. unfold item_bytes, read_item. cbn [fst snd] in *.
  rewrite <- !app_assoc, (read_uleb_prefix sz _ Hsz). cbn [bind]. rewrite read_nts_exact by apply encode_units_no0, Hus.
  cbn [bind]. do 3 f_equal; [|rewrite !app_length; cbn [length]; lia].
  replace (Z.to_nat _) with (length (encode_units us ++ [0])) by (rewrite app_length; cbn [length]; lia).
  rewrite app_assoc. apply skipn_length_app.
Qed.

Lemma read_items_exact : forall l rest pos, Forall ok_item l ->
  read_items (length l) (section l ++ rest) pos = Ok (items_at pos l).
Proof.
  induction l as [|it l IH]; intros rest pos H; [reflexivity|]. inversion H as [|? ? Hit Hl]; subst.
  cbn [length read_items section flat_map items_at]. fold (section l). rewrite <- app_assoc.
  rewrite read_item_exact by assumption. cbn [bind]. rewrite IH by assumption. reflexivity.
Qed.

Lemma items_at_length : forall l pos, length (items_at pos l) = length l.
Proof. induction l as [|x l IH]; intros pos; cbn [items_at length]; [reflexivity | now rewrite IH]. Qed.
(* an item is at least its NUL long: offsets grow strictly, so an id addresses exactly one item *)
Lemma items_at_offsets_ge : forall l pos it, In it (items_at pos l) -> pos <= s_off it.
Proof.
  induction l as [|x l IH]; intros pos it Hin; [contradiction|]. destruct Hin as [<-|Hin]; [cbn; lia|].
  apply IH in Hin. lia.
Qed.
Lemma items_at_nodup : forall l pos, NoDup (map s_off (items_at pos l)).
Proof.
  induction l as [|x l IH]; intros pos; [constructor|]. cbn [items_at map]. constructor; [|apply IH].
  intros Hin. apply in_map_iff in Hin as (it & E & Hin). apply items_at_offsets_ge in Hin. cbn [s_off] in E.
  unfold item_bytes in Hin. rewrite !app_length in Hin. cbn [length] in Hin. lia.
Qed.
Lemma find_unique {items : list sitem} {it} :
  NoDup (map s_off items) -> In it items -> find (fun x => s_off x =? s_off it) (rev items) = Some it.
Proof.
  intros Hnd Hin. destruct (find _ (rev items)) as [x|] eqn:E.
  - apply find_some in E as [Hx Ex]. f_equal. apply (NoDup_map_inj s_off items); auto; [now apply in_rev | now apply Z.eqb_eq].
  - apply in_rev, (find_none _ _ E) in Hin. cbn beta in Hin. rewrite Z.eqb_refl in Hin. discriminate.
Qed.

Lemma nth_items_at : forall l pos k it, nth_error l k = Some it ->
  exists off, nth_error (items_at pos l) k = Some {| s_off := off; s_size := uleb_value (fst it); s_data := encode_units (snd it) |}.
Proof.
  induction l as [|x l IH]; intros pos k it H; [destruct k; discriminate|]. destruct k as [|k].
  - injection H as ->. eexists. reflexivity.
  - cbn [nth_error items_at] in *. apply IH. exact H.
Qed.

(* the whole statement: a file that holds, at any offset, the section made of any strings (any code units), followed
   by anything; string ids that point at item offsets *)
Theorem pool_strings_exact l pre post ids idx k it :
  Forall ok_item l -> nth_error l k = Some it ->
  exists items item,
    read_items (length l) (skipn (length pre) (pre ++ section l ++ post)) (Z.of_nat (length pre)) = Ok items /\
    length items = length l /\
    nth_error items k = Some item /\ s_size item = uleb_value (fst it) /\
    item_text item = Ok (join_pairs (snd it)) /\ to_utf16 (join_pairs (snd it)) = snd it /\
    (nth_error ids idx = Some (s_off item) -> get_raw_string ids items idx = Ok (join_pairs (snd it))).
Proof.
  intros Hl Hk. rewrite skipn_length_app, read_items_exact by assumption.
  destruct (nth_items_at l (Z.of_nat (length pre)) k it Hk) as (off & Hn).
  destruct (proj1 (Forall_forall _ _) Hl it (nth_error_In _ _ Hk)) as [_ Hus]. pose proof (decode_encode _ Hus) as D.
  do 2 eexists. repeat split; [apply items_at_length | exact Hn | reflexivity | exact D | now apply to_utf16_join |].
  intros Hid. unfold get_raw_string. rewrite Hid. cbv beta iota.
  rewrite (find_unique (items_at_nodup l _) (nth_error_In _ _ Hn)). exact D.
Qed.
