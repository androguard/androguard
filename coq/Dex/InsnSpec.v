(* C01 - the Dalvik instruction formats, transcribed from the "Dalvik executable instruction formats" document,
   and the proof that the translated Instruction* classes (coq/gen/Gen_Insn.v) decode every operand encoding to
   the fields the format defines and re-encode to the same bytes.
   A code unit is a 16-bit number; unit u is stored as the bytes u mod 256, u / 256. *)
From Coq Require Import ZArith List Bool Lia ZifyBool.
Require Import V.Lib.Val V.Lib.Result V.Lib.Struct V.Lib.Bits V.Lib.Sweep V.gen.Gen_Insn.
Import ListNotations.
Open Scope Z_scope.

Definition unit_ok (u : Z) : Prop := 0 <= u < 65536.
Definition ub (u : Z) : list Z := [u mod 256; u / 256].
Definition lo8 (u : Z) : Z := u mod 256.
Definition hi8 (u : Z) : Z := u / 256.
Definition nibA (u : Z) : Z := (u / 256) mod 16.
Definition nibB (u : Z) : Z := u / 4096.
Definition sx (bits v : Z) : Z := if 2 ^ (bits - 1) <=? v then v - 2 ^ bits else v.
Definition w32 (u1 u2 : Z) : Z := u1 + 65536 * u2.
Definition w64 (u1 u2 u3 u4 : Z) : Z := u1 + 65536 * u2 + 4294967296 * u3 + 281474976710656 * u4.
Definition byte (b : Z) : Prop := 0 <= b < 256.

Lemma land255 : forall x, Z.land x 255 = x mod 256. Proof. exact Bits.land255. Qed.
Lemma shr8 : forall x, Z.shiftr x 8 = x / 256. Proof. intros. apply (shr_c x 8 256); [reflexivity|lia]. Qed.
Lemma shl8 : forall x, Z.shiftl x 8 = x * 256. Proof. intros. apply (shl_c x 8 256); [reflexivity|lia]. Qed.
Lemma shl16 : forall x, Z.shiftl x 16 = x * 65536. Proof. intros. apply (shl_c x 16 65536); [reflexivity|lia]. Qed.
Lemma shl48 : forall x, Z.shiftl x 48 = x * 281474976710656. Proof. intros. apply (shl_c x 48 281474976710656); [reflexivity|lia]. Qed.
Lemma nib_at : forall x k p, p = 2 ^ k -> 0 <= k -> Z.land (Z.shiftr x k) 15 = (x / p) mod 16.
Proof. intros x k p Hp Hk. rewrite Bits.land15. f_equal. apply shr_c; assumption. Qed.
Lemma lor_add_l : forall a b k p, p = 2 ^ k -> 0 <= k -> 0 <= a < p -> Z.lor (b * p) a = a + b * p.
Proof. intros a b k p -> Hk Ha. rewrite Z.lor_comm. apply lor_mul_add; assumption. Qed.
Lemma lor_add_r : forall a b k p, p = 2 ^ k -> 0 <= k -> 0 <= a < p -> Z.lor a (b * p) = a + b * p.
Proof. intros a b k p -> Hk Ha. apply lor_mul_add; assumption. Qed.
Lemma lor_low : forall x a k p, p = 2 ^ k -> 0 <= k -> x mod p = 0 -> 0 <= a < p -> Z.lor x a = x + a.
Proof.
  intros x a k p Hp Hk Hx Ha. assert (0 < p) by lia.
  replace x with (x / p * p) by (pose proof (Z.div_mod x p); lia).
  rewrite (lor_add_l a (x / p) k p) by assumption. apply Z.add_comm.
Qed.
(* x & 0xF0, 0xF00, 0xF000 *)
Lemma land_nib : forall x k, 0 <= k -> Z.land x (Z.shiftl 15 k) = Z.shiftl (Z.land (Z.shiftr x k) 15) k.
Proof. intros x k. apply land_shl_mask. Qed.
Lemma shr_land_nib : forall x k, 0 <= k -> Z.shiftr (Z.land x (Z.shiftl 15 k)) k = Z.land (Z.shiftr x k) 15.
Proof. intros x k Hk. rewrite land_nib, Z.shiftr_shiftl_l, Z.sub_diag by lia. apply Z.shiftl_0_r. Qed.

Lemma unit_lo : forall lo hi, byte lo -> Z.land (lo + 256 * hi) 255 = lo.
Proof. unfold byte. intros. rewrite land255. lia. Qed.
Lemma unit_nib0 : forall lo hi, Z.land (lo + 256 * hi) 15 = lo mod 16.
Proof. intros. rewrite Bits.land15. lia. Qed.
Lemma unit_nib1 : forall lo hi, byte lo -> Z.land (Z.shiftr (lo + 256 * hi) 4) 15 = lo / 16.
Proof. unfold byte. intros. rewrite (nib_at _ 4 16) by (reflexivity || lia). lia. Qed.
Lemma unit_nib2 : forall lo hi, byte lo -> Z.land (Z.shiftr (lo + 256 * hi) 8) 15 = hi mod 16.
Proof. unfold byte. intros. rewrite (nib_at _ 8 256) by (reflexivity || lia). lia. Qed.
Lemma unit_nib3 : forall lo hi, byte lo -> byte hi -> Z.land (Z.shiftr (lo + 256 * hi) 12) 15 = hi / 16.
Proof. unfold byte. intros. rewrite (nib_at _ 12 4096) by (reflexivity || lia). lia. Qed.
Lemma byte_nib1 : forall b, byte b -> Z.land (Z.shiftr b 4) 15 = b / 16.
Proof. unfold byte. intros. rewrite (nib_at _ 4 16) by (reflexivity || lia). lia. Qed.
Lemma join_byte : forall b, Z.lor (Z.shiftl (b / 16) 4) (b mod 16) = b.
Proof. intros. rewrite (shl_c _ 4 16), (lor_add_l _ _ 4 16) by (reflexivity || lia). lia. Qed.
Lemma join_unit : forall lo hi, byte lo -> Z.lor (Z.shiftl hi 8) lo = lo + 256 * hi.
Proof. unfold byte. intros. rewrite shl8, (lor_add_l _ _ 8 256) by (reflexivity || lia). lia. Qed.
Lemma join_nibs_hi : forall lo hi, byte lo -> Z.lor (Z.lor (Z.shiftl (hi / 16) 12) (Z.shiftl (hi mod 16) 8)) lo = lo + 256 * hi.
Proof.
  unfold byte. intros. rewrite (shl_c _ 12 4096), shl8 by (reflexivity || lia).
  rewrite (lor_low _ (hi mod 16 * 256) 12 4096), (lor_low _ lo 8 256) by (reflexivity || lia). lia.
Qed.
Lemma join_nibs : forall lo hi, byte lo ->
  Z.lor (Z.lor (Z.lor (Z.shiftl (hi / 16) 12) (Z.shiftl (hi mod 16) 8)) (Z.shiftl (lo / 16) 4)) (lo mod 16) = lo + 256 * hi.
Proof. intros. rewrite <- Z.lor_assoc, join_byte. now apply join_nibs_hi. Qed.

Lemma lu_1 : forall a, lu [a] = a. Proof. intros. cbn [lu]. lia. Qed.
Lemma lu_2 : forall a b, lu [a; b] = a + 256 * b. Proof. intros. cbn [lu]. lia. Qed.
Lemma lu_4 : forall a b c d, lu [a; b; c; d] = a + 256 * b + 65536 * c + 16777216 * d. Proof. intros. cbn [lu]. lia. Qed.
Lemma lu_8 : forall a b c d e f g h, lu [a; b; c; d; e; f; g; h] =
  a + 256 * b + 65536 * c + 16777216 * d + 4294967296 * e + 1099511627776 * f + 281474976710656 * g + 72057594037927936 * h.
Proof. intros. cbn [lu]. lia. Qed.
Lemma ls_1 : forall a, ls [a] = sx 8 a.
Proof. intros. unfold ls, sx. rewrite lu_1. cbn [length]. change (width 1) with 8. reflexivity. Qed.
Lemma ls_2 : forall a b, ls [a; b] = sx 16 (a + 256 * b).
Proof. intros. unfold ls, sx. rewrite lu_2. cbn [length]. change (width 2) with 16. reflexivity. Qed.
Lemma ls_4 : forall a b c d, ls [a; b; c; d] = sx 32 (a + 256 * b + 65536 * c + 16777216 * d).
Proof. intros. unfold ls, sx. rewrite lu_4. cbn [length]. change (width 4) with 32. reflexivity. Qed.
Lemma ls_8 : forall a b c d e f g h, ls [a; b; c; d; e; f; g; h] =
  sx 64 (a + 256 * b + 65536 * c + 16777216 * d + 4294967296 * e + 1099511627776 * f + 281474976710656 * g + 72057594037927936 * h).
Proof. intros. unfold ls, sx. rewrite lu_8. cbn [length]. change (width 8) with 64. reflexivity. Qed.

Lemma pack_same : forall s bs, Forall byte bs -> length bs = fsize s -> (0 < fsize s)%nat -> pack_field s (unpack_field s bs) = Ok bs.
Proof. intros. apply pack_unpack_field; assumption. Qed.
Ltac by_pack_same := apply pack_same; [repeat (apply Forall_cons; [assumption|]); apply Forall_nil | reflexivity | cbn [fsize]; lia].
Lemma pack_u8 : forall a, byte a -> pack_field (FU 1) a = Ok [a].
Proof. intros. rewrite <- (lu_1 a) at 1. by_pack_same. Qed.
Lemma pack_u16 : forall a b, byte a -> byte b -> pack_field (FU 2) (a + 256 * b) = Ok [a; b].
Proof. intros. rewrite <- lu_2. by_pack_same. Qed.
Lemma pack_u16_pad : forall a, byte a -> pack_field (FU 2) a = Ok [a; 0].
Proof. intros a H. rewrite <- (pack_u16 a 0) by (assumption || (unfold byte; lia)). f_equal. lia. Qed.
Lemma pack_lu4 : forall a b c d, byte a -> byte b -> byte c -> byte d -> pack_field (FU 4) (lu [a; b; c; d]) = Ok [a; b; c; d].
Proof. intros. by_pack_same. Qed.
Lemma pack_s8 : forall a, byte a -> pack_field (FS 1) (sx 8 a) = Ok [a].
Proof. intros. rewrite <- ls_1. by_pack_same. Qed.
Lemma pack_s16 : forall a b, byte a -> byte b -> pack_field (FS 2) (sx 16 (a + 256 * b)) = Ok [a; b].
Proof. intros. rewrite <- ls_2. by_pack_same. Qed.
Lemma pack_ls4 : forall a b c d, byte a -> byte b -> byte c -> byte d -> pack_field (FS 4) (ls [a; b; c; d]) = Ok [a; b; c; d].
Proof. intros. by_pack_same. Qed.
Lemma pack_ls8 : forall a b c d e f g h, byte a -> byte b -> byte c -> byte d -> byte e -> byte f -> byte g -> byte h ->
  pack_field (FS 8) (ls [a; b; c; d; e; f; g; h]) = Ok [a; b; c; d; e; f; g; h].
Proof. intros. by_pack_same. Qed.

Lemma sx16_unit : forall lo hi, byte lo -> byte hi -> lo + 256 * sx 8 hi = sx 16 (lo + 256 * hi).
Proof. unfold byte, sx. intros. destruct (2 ^ (8 - 1) <=? hi) eqn:E; destruct (2 ^ (16 - 1) <=? lo + 256 * hi) eqn:E'; lia. Qed.
Lemma sx8_range : forall b, byte b -> -128 <= sx 8 b < 128.
Proof. intros b H. unfold byte in H. unfold sx. change (2 ^ (8 - 1)) with 128. change (2 ^ 8) with 256. destruct (128 <=? b) eqn:E; lia. Qed.

(* the decoder on explicit bytes: [unpack] computes on the shape of the list, the values stay as written in the formats *)
Ltac decode C :=
  unfold C; cbn [app firstn]; unfold unpack;
  cbn [unpack_go fsize length Nat.ltb Nat.leb skipn firstn unpack_field];
  rewrite ?lu_1, ?lu_2, ?lu_4, ?lu_8, ?ls_1, ?ls_2, ?ls_4, ?ls_8.

(* androguard repeats the constructor and get_raw of 35c in 35mi and 35ms (likewise 22c in 22cs, 22t in 22s,
   3rc in 3rmi and 3rms, 41c in 40sc, 21c in 22x and 20bc; the constructor alone of 21s in 21t and of 31t in 31i): the translation
   gives the same functions, and the theorems of the first class are those of the others (Props/C01.v). *)
Definition spec_35c (b0 b1 b2 b3 b4 b5 : Z) : list Z := [(b2 + 256 * b3); b0; b1 mod 16; b1 / 16; b4 mod 16; b4 / 16; b5 mod 16; b5 / 16].
Theorem dec_35c_spec : forall b0 b1 b2 b3 b4 b5 rest, byte b0 -> byte b1 -> byte b2 -> byte b3 -> byte b4 -> byte b5 ->
  dec_Instruction35c ([b0; b1; b2; b3; b4; b5] ++ rest) = Ok (spec_35c b0 b1 b2 b3 b4 b5).
Proof. intros. decode dec_Instruction35c. rewrite unit_lo, unit_nib0, unit_nib1, !unit_nib2, !unit_nib3 by assumption. reflexivity. Qed.
Theorem raw_35c_spec : forall b0 b1 b2 b3 b4 b5, byte b0 -> byte b1 -> byte b2 -> byte b3 -> byte b4 -> byte b5 ->
  raw_Instruction35c (spec_35c b0 b1 b2 b3 b4 b5) = Ok [b0; b1; b2; b3; b4; b5].
Proof. intros. unfold raw_Instruction35c, spec_35c. cbn [pack]. rewrite join_nibs_hi, join_nibs by assumption. rewrite !pack_u16 by assumption. reflexivity. Qed.

Definition spec_35mi (b0 b1 b2 b3 b4 b5 : Z) : list Z := [(b2 + 256 * b3); b0; b1 mod 16; b1 / 16; b4 mod 16; b4 / 16; b5 mod 16; b5 / 16].

Definition spec_35ms (b0 b1 b2 b3 b4 b5 : Z) : list Z := [(b2 + 256 * b3); b0; b1 mod 16; b1 / 16; b4 mod 16; b4 / 16; b5 mod 16; b5 / 16].

Definition spec_10x (b0 b1 : Z) : list Z := [b0].
Theorem dec_10x_spec : forall b0 b1 rest, byte b0 -> byte b1 -> b1 = 0 ->
  dec_Instruction10x ([b0; b1] ++ rest) = Ok (spec_10x b0 b1).
Proof. intros. subst b1. decode dec_Instruction10x. reflexivity. Qed.
Theorem raw_10x_spec : forall b0 b1, byte b0 -> byte b1 -> b1 = 0 ->
  raw_Instruction10x (spec_10x b0 b1) = Ok [b0; b1].
Proof. intros. subst b1. unfold raw_Instruction10x, spec_10x. cbn [pack]. rewrite pack_u16_pad by assumption. reflexivity. Qed.

Definition spec_21h (b0 b1 b2 b3 : Z) : list Z := [b0; b1; sx 16 (b2 + 256 * b3); (if b0 =? 21 then sx 16 (b2 + 256 * b3) * 65536 else if b0 =? 25 then sx 16 (b2 + 256 * b3) * 281474976710656 else sx 16 (b2 + 256 * b3))].
Theorem dec_21h_spec : forall b0 b1 b2 b3 rest, byte b0 -> byte b1 -> byte b2 -> byte b3 ->
  dec_Instruction21h ([b0; b1; b2; b3] ++ rest) = Ok (spec_21h b0 b1 b2 b3).
Proof. intros. decode dec_Instruction21h. rewrite shl16, shl48. reflexivity. Qed.
Theorem raw_21h_spec : forall b0 b1 b2 b3, byte b0 -> byte b1 -> byte b2 -> byte b3 ->
  raw_Instruction21h (spec_21h b0 b1 b2 b3) = Ok [b0; b1; b2; b3].
Proof. intros. unfold raw_Instruction21h, spec_21h. cbn [pack]. rewrite join_unit by assumption. rewrite pack_u16, pack_s16 by assumption. reflexivity. Qed.

Definition spec_11n (b0 b1 : Z) : list Z := [b0; b1 mod 16; sx 4 (b1 / 16)].
Theorem dec_11n_spec : forall b0 b1 rest, byte b0 -> byte b1 ->
  dec_Instruction11n ([b0; b1] ++ rest) = Ok (spec_11n b0 b1).
Proof.
  intros b0 b1 rest H0 H1. decode dec_Instruction11n. unfold spec_11n, sx, byte in *.
  rewrite Bits.land15, (shr_c _ 4 16) by (reflexivity || lia).
  destruct (2 ^ (8 - 1) <=? b1) eqn:E; destruct (2 ^ (4 - 1) <=? b1 / 16) eqn:E'; repeat (f_equal; try lia).
Qed.
Theorem raw_11n_spec : forall b0 b1, byte b0 -> byte b1 ->
  raw_Instruction11n (spec_11n b0 b1) = Ok [b0; b1].
Proof.
  intros b0 b1 H0 H1. unfold raw_Instruction11n, spec_11n. cbn [pack].
  replace (Z.lor _ b0) with (sx 16 (b0 + 256 * b1)); [rewrite pack_s16 by assumption; reflexivity|].
  unfold sx, byte in *. rewrite (shl_c _ 12 4096), shl8 by (reflexivity || lia).
  rewrite (lor_low _ (b1 mod 16 * 256) 12 4096), (lor_low _ b0 8 256) by (reflexivity || lia).
  destruct (2 ^ (4 - 1) <=? b1 / 16) eqn:E; destruct (2 ^ (16 - 1) <=? b0 + 256 * b1) eqn:E'; lia.
Qed.

Definition spec_21c (b0 b1 b2 b3 : Z) : list Z := [b0; b1; (b2 + 256 * b3)].
Theorem dec_21c_spec : forall b0 b1 b2 b3 rest, byte b0 -> byte b1 -> byte b2 -> byte b3 ->
  dec_Instruction21c ([b0; b1; b2; b3] ++ rest) = Ok (spec_21c b0 b1 b2 b3).
Proof. intros. decode dec_Instruction21c. reflexivity. Qed.
Theorem raw_21c_spec : forall b0 b1 b2 b3, byte b0 -> byte b1 -> byte b2 -> byte b3 ->
  raw_Instruction21c (spec_21c b0 b1 b2 b3) = Ok [b0; b1; b2; b3].
Proof. intros. unfold raw_Instruction21c, spec_21c. cbn [pack]. rewrite join_unit by assumption. rewrite !pack_u16 by assumption. reflexivity. Qed.

Definition spec_22x (b0 b1 b2 b3 : Z) : list Z := [b0; b1; (b2 + 256 * b3)].

Definition spec_20bc (b0 b1 b2 b3 : Z) : list Z := [b0; b1; (b2 + 256 * b3)].

Definition spec_21s (b0 b1 b2 b3 : Z) : list Z := [b0; b1; sx 16 (b2 + 256 * b3)].
Theorem dec_21s_spec : forall b0 b1 b2 b3 rest, byte b0 -> byte b1 -> byte b2 -> byte b3 ->
  dec_Instruction21s ([b0; b1; b2; b3] ++ rest) = Ok (spec_21s b0 b1 b2 b3).
Proof. intros. decode dec_Instruction21s. reflexivity. Qed.
Theorem raw_21s_spec : forall b0 b1 b2 b3, byte b0 -> byte b1 -> byte b2 -> byte b3 ->
  raw_Instruction21s (spec_21s b0 b1 b2 b3) = Ok [b0; b1; b2; b3].
Proof. intros. unfold raw_Instruction21s, spec_21s. cbn [pack]. rewrite !pack_u8, pack_s16 by assumption. reflexivity. Qed.

Definition spec_21t (b0 b1 b2 b3 : Z) : list Z := [b0; b1; sx 16 (b2 + 256 * b3)].
Theorem raw_21t_spec : forall b0 b1 b2 b3, byte b0 -> byte b1 -> byte b2 -> byte b3 ->
  raw_Instruction21t (spec_21t b0 b1 b2 b3) = Ok [b0; b1; b2; b3].
Proof. intros. unfold raw_Instruction21t, spec_21t. cbn [pack]. rewrite join_unit by assumption. rewrite pack_u16, pack_s16 by assumption. reflexivity. Qed.

Definition spec_22c (b0 b1 b2 b3 : Z) : list Z := [(b2 + 256 * b3); b0; b1 mod 16; b1 / 16].
Theorem dec_22c_spec : forall b0 b1 b2 b3 rest, byte b0 -> byte b1 -> byte b2 -> byte b3 ->
  dec_Instruction22c ([b0; b1; b2; b3] ++ rest) = Ok (spec_22c b0 b1 b2 b3).
Proof. intros. decode dec_Instruction22c. rewrite unit_lo, unit_nib2, unit_nib3 by assumption. reflexivity. Qed.
Theorem raw_22c_spec : forall b0 b1 b2 b3, byte b0 -> byte b1 -> byte b2 -> byte b3 ->
  raw_Instruction22c (spec_22c b0 b1 b2 b3) = Ok [b0; b1; b2; b3].
Proof. intros. unfold raw_Instruction22c, spec_22c. cbn [pack]. rewrite join_nibs_hi by assumption. rewrite !pack_u16 by assumption. reflexivity. Qed.

Definition spec_22cs (b0 b1 b2 b3 : Z) : list Z := [(b2 + 256 * b3); b0; b1 mod 16; b1 / 16].

Definition spec_22t (b0 b1 b2 b3 : Z) : list Z := [sx 16 (b2 + 256 * b3); b0; b1 mod 16; b1 / 16].
Theorem dec_22t_spec : forall b0 b1 b2 b3 rest, byte b0 -> byte b1 -> byte b2 -> byte b3 ->
  dec_Instruction22t ([b0; b1; b2; b3] ++ rest) = Ok (spec_22t b0 b1 b2 b3).
Proof. intros. decode dec_Instruction22t. rewrite unit_lo, unit_nib2, unit_nib3 by assumption. reflexivity. Qed.
Theorem raw_22t_spec : forall b0 b1 b2 b3, byte b0 -> byte b1 -> byte b2 -> byte b3 ->
  raw_Instruction22t (spec_22t b0 b1 b2 b3) = Ok [b0; b1; b2; b3].
Proof. intros. unfold raw_Instruction22t, spec_22t. cbn [pack]. rewrite join_nibs_hi by assumption. rewrite pack_u16, pack_s16 by assumption. reflexivity. Qed.

Definition spec_22s (b0 b1 b2 b3 : Z) : list Z := [sx 16 (b2 + 256 * b3); b0; b1 mod 16; b1 / 16].

Definition spec_31t (b0 b1 b2 b3 b4 b5 : Z) : list Z := [b0; b1; sx 32 (b2 + 256 * b3 + 65536 * b4 + 16777216 * b5)].
Theorem dec_31t_spec : forall b0 b1 b2 b3 b4 b5 rest, byte b0 -> byte b1 -> byte b2 -> byte b3 -> byte b4 -> byte b5 ->
  dec_Instruction31t ([b0; b1; b2; b3; b4; b5] ++ rest) = Ok (spec_31t b0 b1 b2 b3 b4 b5).
Proof. intros. decode dec_Instruction31t. reflexivity. Qed.
Theorem raw_31t_spec : forall b0 b1 b2 b3 b4 b5, byte b0 -> byte b1 -> byte b2 -> byte b3 -> byte b4 -> byte b5 ->
  raw_Instruction31t (spec_31t b0 b1 b2 b3 b4 b5) = Ok [b0; b1; b2; b3; b4; b5].
Proof. intros. unfold raw_Instruction31t, spec_31t. cbn [pack]. rewrite join_unit by assumption. rewrite <- ls_4, pack_u16, pack_ls4 by assumption. reflexivity. Qed.

Definition spec_31i (b0 b1 b2 b3 b4 b5 : Z) : list Z := [b0; b1; sx 32 (b2 + 256 * b3 + 65536 * b4 + 16777216 * b5)].
Theorem raw_31i_spec : forall b0 b1 b2 b3 b4 b5, byte b0 -> byte b1 -> byte b2 -> byte b3 -> byte b4 -> byte b5 ->
  raw_Instruction31i (spec_31i b0 b1 b2 b3 b4 b5) = Ok [b0; b1; b2; b3; b4; b5].
Proof. intros. unfold raw_Instruction31i, spec_31i. cbn [pack]. rewrite <- ls_4, !pack_u8, pack_ls4 by assumption. reflexivity. Qed.

Definition spec_31c (b0 b1 b2 b3 b4 b5 : Z) : list Z := [b0; b1; (b2 + 256 * b3 + 65536 * b4 + 16777216 * b5)].
Theorem dec_31c_spec : forall b0 b1 b2 b3 b4 b5 rest, byte b0 -> byte b1 -> byte b2 -> byte b3 -> byte b4 -> byte b5 ->
  dec_Instruction31c ([b0; b1; b2; b3; b4; b5] ++ rest) = Ok (spec_31c b0 b1 b2 b3 b4 b5).
Proof. intros. decode dec_Instruction31c. reflexivity. Qed.
Theorem raw_31c_spec : forall b0 b1 b2 b3 b4 b5, byte b0 -> byte b1 -> byte b2 -> byte b3 -> byte b4 -> byte b5 ->
  raw_Instruction31c (spec_31c b0 b1 b2 b3 b4 b5) = Ok [b0; b1; b2; b3; b4; b5].
Proof. intros. unfold raw_Instruction31c, spec_31c. cbn [pack]. rewrite join_unit by assumption. rewrite <- lu_4, pack_u16, pack_lu4 by assumption. reflexivity. Qed.

Definition spec_12x (b0 b1 : Z) : list Z := [b0; b1 mod 16; b1 / 16].
Theorem dec_12x_spec : forall b0 b1 rest, byte b0 -> byte b1 ->
  dec_Instruction12x ([b0; b1] ++ rest) = Ok (spec_12x b0 b1).
Proof.
  intros b0 b1 rest H0 H1. decode dec_Instruction12x. unfold spec_12x, sx, byte in *.
  rewrite land255, (nib_at _ 8 256), (nib_at _ 12 4096) by (reflexivity || lia).
  destruct (2 ^ (16 - 1) <=? b0 + 256 * b1); repeat (f_equal; try lia).
Qed.
Theorem raw_12x_spec : forall b0 b1, byte b0 -> byte b1 ->
  raw_Instruction12x (spec_12x b0 b1) = Ok [b0; b1].
Proof. intros. unfold raw_Instruction12x, spec_12x. cbn [pack]. rewrite join_nibs_hi by assumption. rewrite pack_u16 by assumption. reflexivity. Qed.

Definition spec_11x (b0 b1 : Z) : list Z := [b0; b1].
Theorem dec_11x_spec : forall b0 b1 rest, byte b0 -> byte b1 ->
  dec_Instruction11x ([b0; b1] ++ rest) = Ok (spec_11x b0 b1).
Proof. intros. decode dec_Instruction11x. reflexivity. Qed.
Theorem raw_11x_spec : forall b0 b1, byte b0 -> byte b1 ->
  raw_Instruction11x (spec_11x b0 b1) = Ok [b0; b1].
Proof. intros. unfold raw_Instruction11x, spec_11x. cbn [pack]. rewrite join_unit by assumption. rewrite pack_u16 by assumption. reflexivity. Qed.

Definition spec_10t (b0 b1 : Z) : list Z := [b0; sx 8 b1].
Theorem dec_10t_spec : forall b0 b1 rest, byte b0 -> byte b1 ->
  dec_Instruction10t ([b0; b1] ++ rest) = Ok (spec_10t b0 b1).
Proof. intros. decode dec_Instruction10t. reflexivity. Qed.
Theorem raw_10t_spec : forall b0 b1, byte b0 -> byte b1 ->
  raw_Instruction10t (spec_10t b0 b1) = Ok [b0; b1].
Proof. intros. unfold raw_Instruction10t, spec_10t. cbn [pack]. rewrite pack_u8, pack_s8 by assumption. reflexivity. Qed.

Definition spec_51l (b0 b1 b2 b3 b4 b5 b6 b7 b8 b9 : Z) : list Z := [b0; b1; sx 64 (b2 + 256 * b3 + 65536 * b4 + 16777216 * b5 + 4294967296 * b6 + 1099511627776 * b7 + 281474976710656 * b8 + 72057594037927936 * b9)].
Theorem dec_51l_spec : forall b0 b1 b2 b3 b4 b5 b6 b7 b8 b9 rest, byte b0 -> byte b1 -> byte b2 -> byte b3 -> byte b4 -> byte b5 -> byte b6 -> byte b7 -> byte b8 -> byte b9 ->
  dec_Instruction51l ([b0; b1; b2; b3; b4; b5; b6; b7; b8; b9] ++ rest) = Ok (spec_51l b0 b1 b2 b3 b4 b5 b6 b7 b8 b9).
Proof. intros. decode dec_Instruction51l. reflexivity. Qed.
Theorem raw_51l_spec : forall b0 b1 b2 b3 b4 b5 b6 b7 b8 b9, byte b0 -> byte b1 -> byte b2 -> byte b3 -> byte b4 -> byte b5 -> byte b6 -> byte b7 -> byte b8 -> byte b9 ->
  raw_Instruction51l (spec_51l b0 b1 b2 b3 b4 b5 b6 b7 b8 b9) = Ok [b0; b1; b2; b3; b4; b5; b6; b7; b8; b9].
Proof. intros. unfold raw_Instruction51l, spec_51l. cbn [pack]. rewrite <- ls_8, !pack_u8, pack_ls8 by assumption. reflexivity. Qed.

Definition spec_23x (b0 b1 b2 b3 : Z) : list Z := [b0; b1; b2; b3].
Theorem dec_23x_spec : forall b0 b1 b2 b3 rest, byte b0 -> byte b1 -> byte b2 -> byte b3 ->
  dec_Instruction23x ([b0; b1; b2; b3] ++ rest) = Ok (spec_23x b0 b1 b2 b3).
Proof. intros. decode dec_Instruction23x. reflexivity. Qed.
Theorem raw_23x_spec : forall b0 b1 b2 b3, byte b0 -> byte b1 -> byte b2 -> byte b3 ->
  raw_Instruction23x (spec_23x b0 b1 b2 b3) = Ok [b0; b1; b2; b3].
Proof. intros. unfold raw_Instruction23x, spec_23x. cbn [pack]. rewrite !join_unit by assumption. rewrite !pack_u16 by assumption. reflexivity. Qed.

Definition spec_22b (b0 b1 b2 b3 : Z) : list Z := [b0; b1; b2; sx 8 b3].
Theorem dec_22b_spec : forall b0 b1 b2 b3 rest, byte b0 -> byte b1 -> byte b2 -> byte b3 ->
  dec_Instruction22b ([b0; b1; b2; b3] ++ rest) = Ok (spec_22b b0 b1 b2 b3).
Proof. intros. decode dec_Instruction22b. reflexivity. Qed.
Theorem raw_22b_spec : forall b0 b1 b2 b3, byte b0 -> byte b1 -> byte b2 -> byte b3 ->
  raw_Instruction22b (spec_22b b0 b1 b2 b3) = Ok [b0; b1; b2; b3].
Proof. intros. unfold raw_Instruction22b, spec_22b. cbn [pack]. rewrite !join_unit by assumption. rewrite sx16_unit by assumption. rewrite pack_u16, pack_s16 by assumption. reflexivity. Qed.

Definition spec_20t (b0 b1 b2 b3 : Z) : list Z := [b0; sx 16 (b2 + 256 * b3)].
Theorem dec_20t_spec : forall b0 b1 b2 b3 rest, byte b0 -> byte b1 -> byte b2 -> byte b3 -> b1 = 0 ->
  dec_Instruction20t ([b0; b1; b2; b3] ++ rest) = Ok (spec_20t b0 b1 b2 b3).
Proof. intros. subst b1. decode dec_Instruction20t. reflexivity. Qed.
Theorem raw_20t_spec : forall b0 b1 b2 b3, byte b0 -> byte b1 -> byte b2 -> byte b3 -> b1 = 0 ->
  raw_Instruction20t (spec_20t b0 b1 b2 b3) = Ok [b0; b1; b2; b3].
Proof. intros. subst b1. unfold raw_Instruction20t, spec_20t. cbn [pack]. rewrite pack_u16_pad, pack_s16 by assumption. reflexivity. Qed.

Definition spec_30t (b0 b1 b2 b3 b4 b5 : Z) : list Z := [b0; sx 32 (b2 + 256 * b3 + 65536 * b4 + 16777216 * b5)].
Theorem dec_30t_spec : forall b0 b1 b2 b3 b4 b5 rest, byte b0 -> byte b1 -> byte b2 -> byte b3 -> byte b4 -> byte b5 -> b1 = 0 ->
  dec_Instruction30t ([b0; b1; b2; b3; b4; b5] ++ rest) = Ok (spec_30t b0 b1 b2 b3 b4 b5).
Proof. intros. subst b1. decode dec_Instruction30t. reflexivity. Qed.
Theorem raw_30t_spec : forall b0 b1 b2 b3 b4 b5, byte b0 -> byte b1 -> byte b2 -> byte b3 -> byte b4 -> byte b5 -> b1 = 0 ->
  raw_Instruction30t (spec_30t b0 b1 b2 b3 b4 b5) = Ok [b0; b1; b2; b3; b4; b5].
Proof. intros. subst b1. unfold raw_Instruction30t, spec_30t. cbn [pack]. rewrite <- ls_4, pack_u16_pad, pack_ls4 by assumption. reflexivity. Qed.

Definition spec_3rc (b0 b1 b2 b3 b4 b5 : Z) : list Z := [b0; b1; (b2 + 256 * b3); (b4 + 256 * b5); (b4 + 256 * b5) + b1 - 1].
Theorem dec_3rc_spec : forall b0 b1 b2 b3 b4 b5 rest, byte b0 -> byte b1 -> byte b2 -> byte b3 -> byte b4 -> byte b5 ->
  dec_Instruction3rc ([b0; b1; b2; b3; b4; b5] ++ rest) = Ok (spec_3rc b0 b1 b2 b3 b4 b5).
Proof. intros. decode dec_Instruction3rc. reflexivity. Qed.
Theorem raw_3rc_spec : forall b0 b1 b2 b3 b4 b5, byte b0 -> byte b1 -> byte b2 -> byte b3 -> byte b4 -> byte b5 ->
  raw_Instruction3rc (spec_3rc b0 b1 b2 b3 b4 b5) = Ok [b0; b1; b2; b3; b4; b5].
Proof. intros. unfold raw_Instruction3rc, spec_3rc. cbn [pack]. rewrite join_unit by assumption. rewrite !pack_u16 by assumption. reflexivity. Qed.

Definition spec_3rmi (b0 b1 b2 b3 b4 b5 : Z) : list Z := [b0; b1; (b2 + 256 * b3); (b4 + 256 * b5); (b4 + 256 * b5) + b1 - 1].

Definition spec_3rms (b0 b1 b2 b3 b4 b5 : Z) : list Z := [b0; b1; (b2 + 256 * b3); (b4 + 256 * b5); (b4 + 256 * b5) + b1 - 1].

Definition spec_32x (b0 b1 b2 b3 b4 b5 : Z) : list Z := [b0; (b2 + 256 * b3); (b4 + 256 * b5)].
Theorem dec_32x_spec : forall b0 b1 b2 b3 b4 b5 rest, byte b0 -> byte b1 -> byte b2 -> byte b3 -> byte b4 -> byte b5 -> b1 = 0 ->
  dec_Instruction32x ([b0; b1; b2; b3; b4; b5] ++ rest) = Ok (spec_32x b0 b1 b2 b3 b4 b5).
Proof. intros. subst b1. decode dec_Instruction32x. reflexivity. Qed.
Theorem raw_32x_spec : forall b0 b1 b2 b3 b4 b5, byte b0 -> byte b1 -> byte b2 -> byte b3 -> byte b4 -> byte b5 -> b1 = 0 ->
  raw_Instruction32x (spec_32x b0 b1 b2 b3 b4 b5) = Ok [b0; b1; b2; b3; b4; b5].
Proof. intros. subst b1. unfold raw_Instruction32x, spec_32x. cbn [pack]. rewrite pack_u16_pad, !pack_u16 by assumption. reflexivity. Qed.

Definition spec_41c (b0 b1 b2 b3 b4 b5 b6 b7 : Z) : list Z := [(b0 + 256 * b1); (b2 + 256 * b3 + 65536 * b4 + 16777216 * b5); (b6 + 256 * b7)].
Theorem dec_41c_spec : forall b0 b1 b2 b3 b4 b5 b6 b7 rest, byte b0 -> byte b1 -> byte b2 -> byte b3 -> byte b4 -> byte b5 -> byte b6 -> byte b7 ->
  dec_Instruction41c ([b0; b1; b2; b3; b4; b5; b6; b7] ++ rest) = Ok (spec_41c b0 b1 b2 b3 b4 b5 b6 b7).
Proof. intros. decode dec_Instruction41c. reflexivity. Qed.
Theorem raw_41c_spec : forall b0 b1 b2 b3 b4 b5 b6 b7, byte b0 -> byte b1 -> byte b2 -> byte b3 -> byte b4 -> byte b5 -> byte b6 -> byte b7 ->
  raw_Instruction41c (spec_41c b0 b1 b2 b3 b4 b5 b6 b7) = Ok [b0; b1; b2; b3; b4; b5; b6; b7].
Proof. intros. unfold raw_Instruction41c, spec_41c. cbn [pack]. rewrite <- lu_4, !pack_u16, pack_lu4 by assumption. reflexivity. Qed.

Definition spec_40sc (b0 b1 b2 b3 b4 b5 b6 b7 : Z) : list Z := [(b0 + 256 * b1); (b2 + 256 * b3 + 65536 * b4 + 16777216 * b5); (b6 + 256 * b7)].

Definition spec_52c (b0 b1 b2 b3 b4 b5 b6 b7 b8 b9 : Z) : list Z := [(b0 + 256 * b1); (b2 + 256 * b3 + 65536 * b4 + 16777216 * b5); (b6 + 256 * b7); (b8 + 256 * b9)].
Theorem dec_52c_spec : forall b0 b1 b2 b3 b4 b5 b6 b7 b8 b9 rest, byte b0 -> byte b1 -> byte b2 -> byte b3 -> byte b4 -> byte b5 -> byte b6 -> byte b7 -> byte b8 -> byte b9 ->
  dec_Instruction52c ([b0; b1; b2; b3; b4; b5; b6; b7; b8; b9] ++ rest) = Ok (spec_52c b0 b1 b2 b3 b4 b5 b6 b7 b8 b9).
Proof. intros. decode dec_Instruction52c. reflexivity. Qed.
Theorem raw_52c_spec : forall b0 b1 b2 b3 b4 b5 b6 b7 b8 b9, byte b0 -> byte b1 -> byte b2 -> byte b3 -> byte b4 -> byte b5 -> byte b6 -> byte b7 -> byte b8 -> byte b9 ->
  raw_Instruction52c (spec_52c b0 b1 b2 b3 b4 b5 b6 b7 b8 b9) = Ok [b0; b1; b2; b3; b4; b5; b6; b7; b8; b9].
Proof. intros. unfold raw_Instruction52c, spec_52c. cbn [pack]. rewrite <- lu_4, !pack_u16, pack_lu4 by assumption. reflexivity. Qed.

Definition spec_5rc (b0 b1 b2 b3 b4 b5 b6 b7 b8 b9 : Z) : list Z := [(b0 + 256 * b1); (b2 + 256 * b3 + 65536 * b4 + 16777216 * b5); (b6 + 256 * b7); (b8 + 256 * b9); (b8 + 256 * b9) + (b6 + 256 * b7) - 1].
Theorem dec_5rc_spec : forall b0 b1 b2 b3 b4 b5 b6 b7 b8 b9 rest, byte b0 -> byte b1 -> byte b2 -> byte b3 -> byte b4 -> byte b5 -> byte b6 -> byte b7 -> byte b8 -> byte b9 ->
  dec_Instruction5rc ([b0; b1; b2; b3; b4; b5; b6; b7; b8; b9] ++ rest) = Ok (spec_5rc b0 b1 b2 b3 b4 b5 b6 b7 b8 b9).
Proof. intros. decode dec_Instruction5rc. reflexivity. Qed.
Theorem raw_5rc_spec : forall b0 b1 b2 b3 b4 b5 b6 b7 b8 b9, byte b0 -> byte b1 -> byte b2 -> byte b3 -> byte b4 -> byte b5 -> byte b6 -> byte b7 -> byte b8 -> byte b9 ->
  raw_Instruction5rc (spec_5rc b0 b1 b2 b3 b4 b5 b6 b7 b8 b9) = Ok [b0; b1; b2; b3; b4; b5; b6; b7; b8; b9].
Proof. intros. unfold raw_Instruction5rc, spec_5rc. cbn [pack]. rewrite <- lu_4, !pack_u16, pack_lu4 by assumption. reflexivity. Qed.

Definition spec_45cc (b0 b1 b2 b3 b4 b5 b6 b7 : Z) : list Z := [b0; (b2 + 256 * b3); (b6 + 256 * b7); b1 / 16; b1 mod 16; b4 / 16; b4 mod 16; b5 / 16; b5 mod 16].
Theorem dec_45cc_spec : forall b0 b1 b2 b3 b4 b5 b6 b7 rest, byte b0 -> byte b1 -> byte b2 -> byte b3 -> byte b4 -> byte b5 -> byte b6 -> byte b7 -> b1 / 16 <= 5 ->
  dec_Instruction45cc ([b0; b1; b2; b3; b4; b5; b6; b7] ++ rest) = Ok (spec_45cc b0 b1 b2 b3 b4 b5 b6 b7).
Proof.
  intros b0 b1 b2 b3 b4 b5 b6 b7 rest H0 H1 H2 H3 H4 H5 H6 H7 Hg. decode dec_Instruction45cc.
  change 240 with (Z.shiftl 15 4). change 3840 with (Z.shiftl 15 8). change 61440 with (Z.shiftl 15 12).
  rewrite !shr_land_nib by lia. rewrite byte_nib1, Bits.land15, unit_nib0, unit_nib1, unit_nib2, unit_nib3 by assumption.
  replace (5 <? b1 / 16) with false by lia. reflexivity.
Qed.
Theorem raw_45cc_spec : forall b0 b1 b2 b3 b4 b5 b6 b7, byte b0 -> byte b1 -> byte b2 -> byte b3 -> byte b4 -> byte b5 -> byte b6 -> byte b7 -> b1 / 16 <= 5 ->
  raw_Instruction45cc (spec_45cc b0 b1 b2 b3 b4 b5 b6 b7) = Ok [b0; b1; b2; b3; b4; b5; b6; b7].
Proof. intros. unfold raw_Instruction45cc, spec_45cc. cbn [pack]. rewrite join_byte, join_nibs by assumption. rewrite !pack_u8, !pack_u16 by assumption. reflexivity. Qed.

Definition spec_4rcc (b0 b1 b2 b3 b4 b5 b6 b7 : Z) : list Z := [b0; b1; (b2 + 256 * b3); (b4 + 256 * b5); (b6 + 256 * b7); b1 + (b4 + 256 * b5) - 1].
Theorem dec_4rcc_spec : forall b0 b1 b2 b3 b4 b5 b6 b7 rest, byte b0 -> byte b1 -> byte b2 -> byte b3 -> byte b4 -> byte b5 -> byte b6 -> byte b7 ->
  dec_Instruction4rcc ([b0; b1; b2; b3; b4; b5; b6; b7] ++ rest) = Ok (spec_4rcc b0 b1 b2 b3 b4 b5 b6 b7).
Proof. intros. decode dec_Instruction4rcc. reflexivity. Qed.
Theorem raw_4rcc_spec : forall b0 b1 b2 b3 b4 b5 b6 b7, byte b0 -> byte b1 -> byte b2 -> byte b3 -> byte b4 -> byte b5 -> byte b6 -> byte b7 ->
  raw_Instruction4rcc (spec_4rcc b0 b1 b2 b3 b4 b5 b6 b7) = Ok [b0; b1; b2; b3; b4; b5; b6; b7].
Proof. intros. unfold raw_Instruction4rcc, spec_4rcc. cbn [pack]. rewrite !pack_u8, !pack_u16 by assumption. reflexivity. Qed.

(* the opcode table of the Dalvik bytecode document: opcode -> format (as the class that implements it) *)
Definition between (lo hi x : Z) : bool := (lo <=? x) && (x <=? hi).
Definition spec_class (op : Z) : Z :=
  if (op =? 0) || (op =? 14) then cls_Instruction10x
  else if (op =? 1) || (op =? 4) || (op =? 7) || (op =? 33) || between 123 143 op || between 176 207 op then cls_Instruction12x
  else if (op =? 2) || (op =? 5) || (op =? 8) then cls_Instruction22x
  else if (op =? 3) || (op =? 6) || (op =? 9) then cls_Instruction32x
  else if between 10 13 op || between 15 17 op || between 29 30 op || (op =? 39) then cls_Instruction11x
  else if op =? 18 then cls_Instruction11n
  else if (op =? 19) || (op =? 22) then cls_Instruction21s
  else if (op =? 20) || (op =? 23) then cls_Instruction31i
  else if (op =? 21) || (op =? 25) then cls_Instruction21h
  else if op =? 24 then cls_Instruction51l
  else if (op =? 26) || (op =? 28) || (op =? 31) || (op =? 34) || between 96 109 op || between 254 255 op then cls_Instruction21c
  else if op =? 27 then cls_Instruction31c
  else if (op =? 32) || (op =? 35) || between 82 95 op then cls_Instruction22c
  else if (op =? 36) || between 110 114 op || (op =? 252) then cls_Instruction35c
  else if (op =? 37) || between 116 120 op || (op =? 253) then cls_Instruction3rc
  else if (op =? 38) || between 43 44 op then cls_Instruction31t
  else if op =? 40 then cls_Instruction10t
  else if op =? 41 then cls_Instruction20t
  else if op =? 42 then cls_Instruction30t
  else if between 45 49 op || between 68 81 op || between 144 175 op then cls_Instruction23x
  else if between 50 55 op then cls_Instruction22t
  else if between 56 61 op then cls_Instruction21t
  else if between 208 215 op then cls_Instruction22s
  else if between 216 226 op then cls_Instruction22b
  else if op =? 250 then cls_Instruction45cc
  else if op =? 251 then cls_Instruction4rcc
  else cls_Instruction00x.        (* unused: 3e..43, 73, 79, 7a, e3..f9 *)
Definition spec_units (c : Z) : Z :=
  if (c =? cls_Instruction10x) || (c =? cls_Instruction12x) || (c =? cls_Instruction11n) || (c =? cls_Instruction11x) ||
     (c =? cls_Instruction10t) then 1
  else if (c =? cls_Instruction20t) || (c =? cls_Instruction22x) || (c =? cls_Instruction21t) || (c =? cls_Instruction21s) ||
          (c =? cls_Instruction21h) || (c =? cls_Instruction21c) || (c =? cls_Instruction23x) || (c =? cls_Instruction22b) ||
          (c =? cls_Instruction22t) || (c =? cls_Instruction22s) || (c =? cls_Instruction22c) then 2
  else if (c =? cls_Instruction30t) || (c =? cls_Instruction32x) || (c =? cls_Instruction31i) || (c =? cls_Instruction31t) ||
          (c =? cls_Instruction31c) || (c =? cls_Instruction35c) || (c =? cls_Instruction3rc) then 3
  else if (c =? cls_Instruction45cc) || (c =? cls_Instruction4rcc) then 4
  else if c =? cls_Instruction51l then 5 else 0.

Definition table_row_ok (op : Z) : bool :=
  match find (fun r => fst r =? op) table_format with
  | Some (_, (c, _)) => (c =? spec_class op) && (len_of_class c =? 2 * spec_units c)
  | None => false
  end.
Theorem opcode_table_matches_dalvik : forall op, 0 <= op < 256 -> table_row_ok op = true.
Proof.
  assert (A : all8 table_row_ok = true) by (vm_compute; reflexivity).
  intros op H. exact (all8_spec _ A op H).
Qed.
Theorem unused_opcodes_rejected : forall bs, dec_of_class cls_Instruction00x bs = Err InvalidInstruction.
Proof. reflexivity. Qed.
